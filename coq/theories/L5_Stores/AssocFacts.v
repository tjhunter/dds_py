(* The association lists of the store specification (L4_Eval/Store.v: alookup, aupdate): the facts the proofs of this
   layer share. *)
From Coq Require Import List Ascii Bool.
From DDS Require Import Base.Bytes L4_Eval.Store.
From DDS Require Export Base.BytesFacts.
Import ListNotations.

Section Assoc.
  Variable A : Type.
  Implicit Types (k u : bytes) (v : A) (l : list (bytes * A)).

  Lemma alookup_aupdate : forall u k v l,
    alookup u (aupdate k v l) = if bytes_eqb u k then Some v else alookup u l.
  Proof.
    intros u k v l. induction l as [|[k' v'] r IH]; simpl; [reflexivity|].
    destruct (bytes_eqb_spec k k') as [<-|N]; simpl.
    - destruct (bytes_eqb u k); reflexivity.
    - rewrite IH. destruct (bytes_eqb_spec u k') as [->|]; [|reflexivity].
      destruct (bytes_eqb_spec k' k); congruence.
  Qed.

  Lemma alookup_aupdate_same : forall k v l, alookup k (aupdate k v l) = Some v.
  Proof. intros k v l. rewrite alookup_aupdate, bytes_eqb_refl. reflexivity. Qed.

  Lemma alookup_aupdate_other : forall k u v l, u <> k -> alookup u (aupdate k v l) = alookup u l.
  Proof. intros k u v l N. apply bytes_eqb_neq in N. rewrite alookup_aupdate, N. reflexivity. Qed.

  Lemma aupdate_id : forall k v l, alookup k l = Some v -> aupdate k v l = l.
  Proof.
    intros k v l. induction l as [|[k' v'] r IH]; simpl; intro H; [discriminate|].
    destruct (bytes_eqb_spec k k') as [<-|]; [congruence | now rewrite IH].
  Qed.

  Lemma aupdate_absent : forall k v l, alookup k l = None -> aupdate k v l = l ++ [(k, v)].
  Proof.
    intros k v l. induction l as [|[k' v'] r IH]; simpl; intro H; [reflexivity|].
    destruct (bytes_eqb k k'); [discriminate | now rewrite IH].
  Qed.

  Lemma alookup_app : forall k l l',
    alookup k (l ++ l') = match alookup k l with Some v => Some v | None => alookup k l' end.
  Proof.
    intros k l l'. induction l as [|[k' v'] r IH]; simpl; [reflexivity|].
    destruct (bytes_eqb k k'); [reflexivity | exact IH].
  Qed.

  Lemma alookup_In : forall k v l, alookup k l = Some v -> In (k, v) l.
  Proof.
    intros k v l. induction l as [|[k' v'] r IH]; simpl; intro H; [discriminate|].
    destruct (bytes_eqb_spec k k') as [<-|]; [left; congruence | right; auto].
  Qed.

  Lemma alookup_notin : forall k l, ~ In k (map fst l) -> alookup k l = None.
  Proof.
    intros k l N. destruct (alookup k l) as [v|] eqn:E; [|reflexivity].
    destruct N. exact (in_map fst _ _ (alookup_In _ _ _ E)).
  Qed.

  Lemma In_alookup_nodup : forall k v l, NoDup (map fst l) -> In (k, v) l -> alookup k l = Some v.
  Proof.
    intros k v l. induction l as [|[k' v'] r IH]; simpl; intros ND HIn; [contradiction|].
    inversion ND as [|? ? Hnin ND']; subst. destruct HIn as [E|HIn].
    - injection E as -> ->. now rewrite bytes_eqb_refl.
    - destruct (bytes_eqb_spec k k') as [<-|]; [|auto].
      destruct Hnin. exact (in_map fst _ _ HIn).
  Qed.
End Assoc.
