(* Several processes share ONE inner store, each through its OWN LRU cache wrapper (Lru.v), and their
   operations interleave arbitrarily.  Under content addressing every client still gets exactly the
   answers the bare shared store gives for the same global operation sequence, and every cache stays
   bounded.  Without content addressing two clients can disagree with the bare store. *)
From Coq Require Import List Ascii String Bool Arith.
From DDS Require Import Base.Bytes L4_Eval.Store L5_Stores.Lru L5_Stores.LruProofs.
Import ListNotations.

Definition mstate := (list cache * sstate)%type.
Definition mop := (nat * sop)%type.

(* replace position i (a list shorter than i+1 is left unchanged) *)
Fixpoint set_nth {A : Type} (i : nat) (x : A) (l : list A) {struct l} : list A :=
  match l with
  | [] => []
  | y :: r => match i with O => x :: r | S j => y :: set_nth j x r end
  end.

(* Client i runs one step of ITS wrapper (its own cache) against the shared inner state; both its cache
   and the inner state are written back.  CHOICE for an out-of-range client index: it has no cache and
   talks to the bare store directly.  The main theorems below nevertheless carry (or do not need) the
   hypothesis "client < number of clients", so they do not depend on this choice. *)
Definition multi_step (cap : option nat) (st : mstate) (io : mop) : mstate * sout :=
  let '(cs, s) := st in
  let '(i, o) := io in
  match nth_error cs i with
  | Some c =>
      let '((c', s'), out) := lru_step sstate spec_step cap (c, s) o in
      ((set_nth i c' cs, s'), out)
  | None =>
      let '(s', out) := spec_step s o in ((cs, s'), out)
  end.

Fixpoint multi_run (cap : option nat) (st : mstate) (ops : list mop) : list sout :=
  match ops with
  | [] => []
  | io :: r => let '(st', out) := multi_step cap st io in out :: multi_run cap st' r
  end.

Definition multi_exec (cap : option nat) (st : mstate) (ops : list mop) : mstate :=
  fold_left (fun st io => fst (multi_step cap st io)) ops st.

Definition minit (n : nat) : mstate := (repeat ([] : cache) n, sempty).

Definition clients_below (n : nat) (ops : list mop) : Prop :=
  Forall (fun io => fst io < n) ops.

Definition all_ok (cs : list cache) (s : sstate) : Prop :=
  Forall (fun c => cache_ok_in c s) cs.

Lemma set_nth_length : forall (A : Type) i (x : A) l, List.length (set_nth i x l) = List.length l.
Proof.
  intros A i x l. revert i. induction l as [|y r IH]; intros [|j]; simpl; auto.
Qed.

Lemma Forall_set_nth : forall (A : Type) (P : A -> Prop) i x l,
  Forall P l -> P x -> Forall P (set_nth i x l).
Proof.
  intros A P i x l HF Hx. revert i. induction HF as [|y r Hy HF IH]; intros [|j]; simpl; auto.
Qed.

Lemma Forall_nth_error : forall (A : Type) (P : A -> Prop) l i x,
  Forall P l -> nth_error l i = Some x -> P x.
Proof.
  intros A P l i x HF E. apply nth_error_In in E.
  rewrite Forall_forall in HF. apply HF. exact E.
Qed.

Lemma Forall_repeat : forall (A : Type) (P : A -> Prop) x n, P x -> Forall P (repeat x n).
Proof.
  intros A P x n Hx. apply Forall_forall. intros y Hy. apply repeat_spec in Hy. subst y. exact Hx.
Qed.

(* a step of the shared store keeps every OTHER client's cache valid *)
Lemma all_ok_spec_step : forall cs s o,
  all_ok cs s -> keeps_blobs s o -> all_ok cs (fst (spec_step s o)).
Proof.
  intros cs s o Hall Hkeep. apply (Forall_impl _ (fun c Hc => cache_ok_in_spec_step c s o Hc Hkeep) Hall).
Qed.

Lemma multi_step_sim : forall cap cs s i o,
  all_ok cs s -> keeps_blobs s o ->
  exists cs',
    multi_step cap (cs, s) (i, o) = ((cs', fst (spec_step s o)), snd (spec_step s o))
    /\ all_ok cs' (fst (spec_step s o))
    /\ List.length cs' = List.length cs.
Proof.
  intros cap cs s i o Hall Hkeep. pose proof (all_ok_spec_step _ _ _ Hall Hkeep) as Hall'.
  unfold multi_step. destruct (nth_error cs i) as [c|] eqn:E.
  - destruct (lru_step_sim cap c s o (Forall_nth_error _ _ _ _ _ Hall E) Hkeep) as [c' [Hstep Hok']].
    rewrite Hstep. exists (set_nth i c' cs).
    split; [reflexivity|]. split; [apply Forall_set_nth; assumption | apply set_nth_length].
  - exists cs. destruct (spec_step s o). auto.
Qed.

Lemma multi_sim : forall cap ops cs s,
  all_ok cs s -> consistent_from (blobs s) (map snd ops) = true ->
  multi_run cap (cs, s) ops = run_ops spec_step s (map snd ops)
  /\ snd (multi_exec cap (cs, s) ops) = fold_left (fun s o => fst (spec_step s o)) (map snd ops) s
  /\ List.length (fst (multi_exec cap (cs, s) ops)) = List.length cs
  /\ all_ok (fst (multi_exec cap (cs, s) ops)) (snd (multi_exec cap (cs, s) ops)).
Proof.
  intros cap ops. induction ops as [|[i o] r IH]; intros cs s Hall Hc.
  - simpl. auto.
  - cbn [map snd] in *. destruct (consistent_step _ _ _ Hc) as [Hkeep Hc'].
    destruct (multi_step_sim cap cs s i o Hall Hkeep) as [cs' [Hstep [Hall' Hlen]]].
    unfold multi_exec. cbn [multi_run run_ops fold_left]. rewrite Hstep.
    destruct (spec_step s o) as [s2 out2]. cbn [fst snd] in *. rewrite <- Hlen.
    destruct (IH cs' s2 Hall' Hc') as [Hrun Hrest]. split; [f_equal; exact Hrun | exact Hrest].
Qed.

(* From ANY state in which every entry of every cache is what the shared store holds, and for ANY
   interleaving (the client indices are unconstrained: an index without a cache talks to the bare
   store).  Content addressing is required relative to what the store already holds. *)
Theorem lru_multi_transparent_gen : forall cap ops cs s,
  all_ok cs s -> consistent_from (blobs s) (map snd ops) = true ->
  multi_run cap (cs, s) ops = run_ops spec_step s (map snd ops).
Proof. intros cap ops cs s Hall Hc. apply multi_sim; assumption. Qed.

(* the [alookup]-phrased invariant [cache_ok] suffices when no cache list repeats a key (it is not
   inductive otherwise: LruProofs.cache_ok_alookup_insufficient) *)
Theorem lru_multi_transparent_gen_nodup : forall cap ops cs s,
  Forall (fun c => NoDup (map fst c) /\ cache_ok c s) cs ->
  consistent_from (blobs s) (map snd ops) = true ->
  multi_run cap (cs, s) ops = run_ops spec_step s (map snd ops).
Proof.
  intros cap ops cs s HF Hc. apply lru_multi_transparent_gen; [|exact Hc].
  apply (Forall_impl _ (fun c H => cache_ok_nodup_in c s (proj1 H) (proj2 H)) HF).
Qed.

(* the instance C12b talks about: n clients starting with empty caches over the empty store,
   every operation issued by one of them *)
Theorem lru_multi_transparent : forall cap n ops,
  clients_below n ops -> consistent (map snd ops) = true ->
  multi_run cap (minit n) ops = run_ops spec_step sempty (map snd ops).
Proof.
  intros cap n ops _ Hc. apply lru_multi_transparent_gen; [|exact Hc].
  apply Forall_repeat, cache_ok_in_nil.
Qed.

Theorem lru_multi_inner_state : forall cap ops cs s,
  all_ok cs s -> consistent_from (blobs s) (map snd ops) = true ->
  snd (multi_exec cap (cs, s) ops) = fold_left (fun s o => fst (spec_step s o)) (map snd ops) s
  /\ List.length (fst (multi_exec cap (cs, s) ops)) = List.length cs
  /\ all_ok (fst (multi_exec cap (cs, s) ops)) (snd (multi_exec cap (cs, s) ops)).
Proof. intros cap ops cs s Hall Hc. apply multi_sim; assumption. Qed.

Definition all_bounded (n : nat) (cs : list cache) : Prop :=
  Forall (fun c : cache => List.length c <= n) cs.

Lemma multi_step_bounded : forall n st io,
  all_bounded n (fst st) ->
  all_bounded n (fst (fst (multi_step (Some n) st io)))
  /\ List.length (fst (fst (multi_step (Some n) st io))) = List.length (fst st).
Proof.
  intros n [cs s] [i o] HF. simpl in HF. unfold multi_step.
  destruct (nth_error cs i) as [c|] eqn:E.
  - pose proof (lru_step_bounded sstate spec_step n (c, s) o (Forall_nth_error _ _ _ _ _ HF E)) as Hb.
    destruct (lru_step sstate spec_step (Some n) (c, s) o) as [[c' s'] out].
    split; [apply Forall_set_nth; assumption | apply set_nth_length].
  - destruct (spec_step s o). auto.
Qed.

(* for ANY global sequence: content addressing is not needed *)
Theorem lru_multi_bounded : forall n ops st,
  all_bounded n (fst st) ->
  all_bounded n (fst (multi_exec (Some n) st ops))
  /\ List.length (fst (multi_exec (Some n) st ops)) = List.length (fst st).
Proof.
  intros n ops. unfold multi_exec. induction ops as [|io r IH]; intros st HF; [auto|].
  destruct (multi_step_bounded n st io HF) as [Hb Hl]. simpl. rewrite <- Hl. apply IH, Hb.
Qed.

Corollary lru_multi_bounded_init : forall n m ops,
  all_bounded n (fst (multi_exec (Some n) (minit m) ops))
  /\ List.length (fst (multi_exec (Some n) (minit m) ops)) = m.
Proof.
  intros n m ops. rewrite <- (repeat_length ([] : cache) m) at 3. apply lru_multi_bounded.
  apply Forall_repeat. apply Nat.le_0_l.
Qed.

(* a consistent two-client history in which both caches are really used *)
Example multi_consistent_example :
  let ops := [(1, OPut (bs "k") (BVal (bs "1"))); (0, OFetch (bs "k")); (1, OFetch (bs "k"));
              (0, OPut (bs "k") (BVal (bs "1"))); (0, OFetch (bs "k")); (1, OHas (bs "k"));
              (0, OFetch (bs "absent")); (1, OPut (bs "n") BNone); (0, OFetch (bs "n"))] in
  clients_below 2 ops /\ consistent (map snd ops) = true /\
  fst (multi_exec (Some 1) (minit 2) ops) = [[(bs "n", BNone)]; [(bs "k", BVal (bs "1"))]].
Proof.
  split; [|split].
  - repeat constructor.
  - vm_compute. reflexivity.
  - vm_compute. reflexivity.
Qed.

(* Without content addressing two clients disagree with the bare store: client 0 fetches k (and caches
   the value), client 1 overwrites k with another value, client 0 fetches k again and is answered from
   its own cache (here with unbounded caches). *)
Example lru_multi_needs_content_addressing : exists ops,
  clients_below 2 ops /\
  multi_run None (minit 2) ops <> run_ops spec_step sempty (map snd ops).
Proof.
  exists [(1, OPut (bs "k"%string) (BVal (bs "1"%string))); (0, OFetch (bs "k"%string));
          (1, OPut (bs "k"%string) (BVal (bs "2"%string))); (0, OFetch (bs "k"%string))].
  split.
  - repeat constructor.
  - vm_compute. intro H. discriminate H.
Qed.

Print Assumptions lru_multi_transparent_gen.
Print Assumptions lru_multi_transparent_gen_nodup.
Print Assumptions lru_multi_transparent.
Print Assumptions lru_multi_inner_state.
Print Assumptions lru_multi_bounded.
Print Assumptions lru_multi_bounded_init.
Print Assumptions lru_multi_needs_content_addressing.
