(* Proofs about the LRU cache wrapper model (Lru.v): transparency over the store specification under
   content addressing, boundedness for any inner store, decoding of the cache_objects option. *)
From Coq Require Import List Ascii String Bool NArith ZArith Lia.
From DDS Require Import Base.Bytes L4_Eval.Store L5_Stores.AssocFacts L5_Stores.Lru.
Import ListNotations.

Lemma blob_eqb_eq : forall a b, blob_eqb a b = true <-> a = b.
Proof. intros [|x] [|y]; simpl; rewrite ?bytes_eqb_eq; split; congruence. Qed.

Lemma cremove_incl : forall k c, incl (cremove k c) c.
Proof.
  intros k c x. induction c as [|[k' v'] r IH]; simpl; [auto|].
  destruct (bytes_eqb k k'); simpl; intuition.
Qed.

Lemma evict_skipn : forall n (c : cache), evict n c = skipn n c.
Proof. induction n as [|m IH]; intros [|y r]; simpl; rewrite ?IH; try reflexivity. apply skipn_nil. Qed.

Lemma evict_suffix : forall n (c : cache), exists pre, c = pre ++ evict n c.
Proof. intros n c. exists (firstn n c). rewrite evict_skipn. symmetry. apply firstn_skipn. Qed.

Lemma In_evict : forall n c (x : key * blob), In x (evict n c) -> In x c.
Proof. intros n c x H. destruct (evict_suffix n c) as [pre E]. rewrite E. apply in_or_app. auto. Qed.

Lemma In_cput : forall cap k v c x, In x (cput cap k v c) -> x = (k, v) \/ In x c.
Proof.
  intros cap k v c x H.
  assert (Hbase : In x (cremove k c ++ [(k, v)])) by (destruct cap; [apply In_evict in H|]; exact H).
  apply in_app_or in Hbase. destruct Hbase as [Hc|[Hl|[]]].
  - right. exact (cremove_incl _ _ _ Hc).
  - left. auto.
Qed.

Definition cache_ok (c : cache) (s : sstate) : Prop :=
  forall k v, alookup k c = Some v -> alookup k (blobs s) = Some v.

(* the inductive invariant: every ENTRY of the cache is what the store holds *)
Definition cache_ok_in (c : cache) (s : sstate) : Prop :=
  forall k v, In (k, v) c -> alookup k (blobs s) = Some v.

Lemma cache_ok_in_cache_ok : forall c s, cache_ok_in c s -> cache_ok c s.
Proof. intros c s H k v L. apply H. apply alookup_In. exact L. Qed.

Lemma cache_ok_nodup_in : forall c s, NoDup (map fst c) -> cache_ok c s -> cache_ok_in c s.
Proof. intros c s ND H k v HIn. apply H. apply In_alookup_nodup; assumption. Qed.

Lemma cache_ok_in_nil : forall s, cache_ok_in [] s.
Proof. intros s k v H. contradiction. Qed.

(* also the move to the end on a hit: [cput None k v c] is [cremove k c ++ [(k, v)]] *)
Lemma cput_ok : forall cap c s k v,
  cache_ok_in c s -> alookup k (blobs s) = Some v -> cache_ok_in (cput cap k v c) s.
Proof.
  intros cap c s k v Hok Hkv k2 v2 HIn. apply In_cput in HIn. destruct HIn as [HEq|HIn]; [congruence | auto].
Qed.

(* what content addressing gives: the step leaves every binding of the store as it is *)
Definition keeps_blobs (s : sstate) (o : sop) : Prop :=
  forall k v, alookup k (blobs s) = Some v -> alookup k (blobs (fst (spec_step s o))) = Some v.

Lemma cache_ok_in_spec_step : forall c s o,
  cache_ok_in c s -> keeps_blobs s o -> cache_ok_in c (fst (spec_step s o)).
Proof. intros c s o Hok Hkeep k v HIn. apply Hkeep, Hok, HIn. Qed.

Lemma lru_step_sim : forall cap c s o,
  cache_ok_in c s -> keeps_blobs s o ->
  exists c',
    lru_step sstate spec_step cap (c, s) o = ((c', fst (spec_step s o)), snd (spec_step s o))
    /\ cache_ok_in c' (fst (spec_step s o)).
Proof.
  intros cap c s o Hok Hkeep.
  destruct o as [k|k|k v|ps|ps].
  - (* OHas *) simpl. unfold cget. destruct (alookup k c) as [w|] eqn:L.
    + (* hit: the store holds the entry, which moves to the end *)
      apply alookup_In, Hok in L. rewrite L. eexists. split; [reflexivity | apply (cput_ok None); assumption].
    + (* miss *) exists c. split; [reflexivity | exact Hok].
  - (* OFetch *) simpl. unfold cget, spec_fetch. destruct (alookup k c) as [w|] eqn:L.
    + (* hit: the store holds the entry, which moves to the end *)
      apply alookup_In, Hok in L. rewrite L. eexists. split; [reflexivity | apply (cput_ok None); assumption].
    + (* miss: what the store holds is cached, that it holds nothing is not *)
      unfold inner_has. simpl. destruct (alookup k (blobs s)) as [v|] eqn:E.
      * exists (cput cap k v c). split; [destruct v; reflexivity | apply cput_ok; assumption].
      * exists c. split; [reflexivity | exact Hok].
  - (* OPut: the one step that changes the blobs, hence the one that needs [keeps_blobs] *)
    exists c. split; [reflexivity | apply cache_ok_in_spec_step; assumption].
  - (* OSync *) exists c. split; [reflexivity | exact Hok].
  - (* OFetchPaths *) exists c. split; [reflexivity | exact Hok].
Qed.

Lemma consistent_from_ext : forall ops seen seen',
  (forall k, alookup k seen = alookup k seen') -> consistent_from seen ops = consistent_from seen' ops.
Proof.
  induction ops as [|[k|k|k v|ps|ps] r IH]; intros seen seen' E; simpl; auto.
  rewrite <- E. destruct (alookup k seen); [f_equal; auto|].
  apply IH. intro k2. simpl. rewrite E. reflexivity.
Qed.

Lemma consistent_step : forall s o ops,
  consistent_from (blobs s) (o :: ops) = true ->
  keeps_blobs s o /\ consistent_from (blobs (fst (spec_step s o))) ops = true.
Proof.
  intros s o ops Hc. destruct o as [k|k|k v|ps|ps]; try (split; [intros ? ? E; exact E | exact Hc]).
  unfold keeps_blobs. simpl in *. destruct (alookup k (blobs s)) as [w|] eqn:L.
  - (* the value the key has already: the store stays as it is *)
    apply andb_true_iff in Hc. destruct Hc as [Hvw Hc]. apply blob_eqb_eq in Hvw. subst w.
    rewrite aupdate_id by exact L. auto.
  - (* a new key *) split.
    + intros k2 v2 H. rewrite alookup_aupdate. destruct (bytes_eqb_spec k2 k) as [->|]; [congruence | exact H].
    + (* [consistent_from] puts the new key in front, the store appends it: the lookups agree *)
      rewrite (consistent_from_ext ops _ ((k, v) :: blobs s)); [exact Hc|].
      intro k2. apply alookup_aupdate.
Qed.

(* Transparency from any state whose cache entries are all held by the store.
   Stated with [cache_ok_in]: the [alookup]-phrased [cache_ok] is not inductive when a cache list
   repeats a key (see [cache_ok_alookup_insufficient] below). *)
Theorem lru_transparent_gen : forall cap ops c s,
  cache_ok_in c s -> consistent_from (blobs s) ops = true ->
  run_ops (lru_step sstate spec_step cap) (c, s) ops = run_ops spec_step s ops.
Proof.
  intros cap ops. induction ops as [|o r IH]; intros c s Hok Hc; [reflexivity|].
  destruct (consistent_step _ _ _ Hc) as [Hkeep Hc'].
  destruct (lru_step_sim cap c s o Hok Hkeep) as [c' [Hstep Hok']].
  cbn [run_ops]. rewrite Hstep. destruct (spec_step s o) as [s2 out2].
  f_equal. apply IH; assumption.
Qed.

Theorem lru_transparent_gen_nodup : forall cap ops c s,
  NoDup (map fst c) -> cache_ok c s -> consistent_from (blobs s) ops = true ->
  run_ops (lru_step sstate spec_step cap) (c, s) ops = run_ops spec_step s ops.
Proof.
  intros cap ops c s ND Hok Hc. apply lru_transparent_gen; [|exact Hc].
  apply cache_ok_nodup_in; assumption.
Qed.

(* [cache_ok] alone does not suffice: a cache list [(k,v1);(k,v2)] over a store holding k->v1 satisfies
   it, the first hit moves (k,v1) to the end, the second hit answers v2 *)
Example cache_ok_alookup_insufficient : exists cap c s ops,
  cache_ok c s /\ consistent_from (blobs s) ops = true /\
  run_ops (lru_step sstate spec_step cap) (c, s) ops <> run_ops spec_step s ops.
Proof.
  exists None.
  exists [(bs "k"%string, BVal (bs "1"%string)); (bs "k"%string, BVal (bs "2"%string))].
  exists (SState [(bs "k"%string, BVal (bs "1"%string))] []).
  exists [OFetch (bs "k"%string); OFetch (bs "k"%string)].
  split; [|split].
  - intros k v L. simpl in *.
    destruct (bytes_eqb k ["k"%char]) eqn:E; [exact L | discriminate L].
  - reflexivity.
  - vm_compute. intro H. discriminate H.
Qed.

(* the instance C12 talks about *)
Theorem lru_transparent : forall cap ops, consistent ops = true ->
  run_ops (lru_step sstate spec_step cap) ([], sempty) ops = run_ops spec_step sempty ops.
Proof.
  intros cap ops Hc. apply lru_transparent_gen.
  - apply cache_ok_in_nil.
  - exact Hc.
Qed.

Lemma length_cremove : forall k c,
  List.length (cremove k c) + (if alookup k c then 1 else 0) = List.length c.
Proof.
  intros k c. induction c as [|[k' v'] r IH]; simpl; [reflexivity|].
  (* [key] and [bytes] are convertible but distinct atoms for lia *)
  destruct (bytes_eqb k k'); simpl; unfold key in *; lia.
Qed.

Lemma length_cremove_le : forall k c, List.length (cremove k c) <= List.length c.
Proof. intros k c. pose proof (length_cremove k c). lia. Qed.

Lemma cget_length : forall k c, List.length (snd (cget k c)) = List.length c.
Proof.
  intros k c. pose proof (length_cremove k c) as H. unfold cget. destruct (alookup k c) as [v|]; simpl.
  - rewrite app_length. exact H.
  - reflexivity.
Qed.

Lemma cput_length : forall n k v c, List.length (cput (Some n) k v c) <= n.
Proof.
  intros n k v c. unfold cput. rewrite evict_skipn, skipn_length. lia.
Qed.

(* Whatever the wrapped store answers, the cache after a step is the cache before it put through [cget] and
   possibly [cput]: a property of caches that both preserve is preserved by the wrapper. *)
Lemma lru_step_cache : forall (P : cache -> Prop) (St : Type) (inner : St -> sop -> St * sout) cap,
  (forall k c, P c -> P (snd (cget k c))) -> (forall k v c, P c -> P (cput cap k v c)) ->
  forall c s o, P c -> P (fst (fst (lru_step St inner cap (c, s) o))).
Proof.
  intros P St inner cap Hget Hput c s o Hc.
  destruct o as [k|k|k v|ps|ps]; simpl.
  - (* OHas *) specialize (Hget k c Hc). destruct (cget k c) as [[w|] c'].
    + (* hit *) exact Hget.
    + (* miss *) destruct (inner s (OHas k)). exact Hget.
  - (* OFetch *) specialize (Hget k c Hc). destruct (cget k c) as [[w|] c'].
    + (* hit *) exact Hget.
    + (* miss: by its answer, the inner store's blob is put or the cache stays *)
      destruct (inner s (OFetch k)) as [s' [b|[|b]| | |]]; simpl; auto.
      destruct (inner_has St inner s' k); simpl; auto.
  - (* OPut *) destruct (inner s (OPut k v)). exact Hc.
  - (* OSync *) destruct (inner s (OSync ps)). exact Hc.
  - (* OFetchPaths *) destruct (inner s (OFetchPaths ps)). exact Hc.
Qed.

Lemma lru_step_bounded : forall (St : Type) (inner : St -> sop -> St * sout) n st o,
  List.length (fst st) <= n ->
  List.length (fst (fst (lru_step St inner (Some n) st o))) <= n.
Proof.
  intros St inner n [c s] o. apply (lru_step_cache (fun c => List.length c <= n)).
  - intros k c0. rewrite cget_length. auto.
  - intros k v c0 _. apply cput_length.
Qed.

Theorem lru_bounded : forall (S : Type) (inner : S -> sop -> S * sout) n ops st,
  List.length (fst st) <= n ->
  List.length (fst (fold_left (fun st o => fst (lru_step S inner (Some n) st o)) ops st)) <= n.
Proof.
  intros St inner n ops. induction ops as [|o r IH]; intros st Hlen.
  - exact Hlen.
  - simpl. apply IH. apply lru_step_bounded. exact Hlen.
Qed.

Theorem decode_spec : forall d,
  decode_cache_objects d CNone = None /\ decode_cache_objects d (CBool false) = None /\
  decode_cache_objects d (CInt 0) = None /\ decode_cache_objects d (CBool true) = Some (Some d) /\
  (forall z, (0 < z)%Z -> decode_cache_objects d (CInt z) = Some (Some (Z.to_nat z))) /\
  (forall z, (z < 0)%Z -> decode_cache_objects d (CInt z) = Some None).
Proof.
  intro d. repeat split; intros z Hz; unfold decode_cache_objects.
  - destruct (Z.ltb_spec z 0), (Z.ltb_spec 0 z); (reflexivity || lia).
  - destruct (Z.ltb_spec z 0); [reflexivity | lia].
Qed.

Example consistent_example :
  consistent [OFetch (bs "k"); OPut (bs "k") (BVal (bs "v")); OHas (bs "k"); OFetch (bs "k");
              OPut (bs "k") (BVal (bs "v")); OPut (bs "n") BNone; OFetch (bs "n")] = true.
Proof. vm_compute. reflexivity. Qed.

Example inconsistent_breaks_transparency : exists ops,
  run_ops (lru_step sstate spec_step (Some 1)) ([], sempty) ops <> run_ops spec_step sempty ops.
Proof.
  exists [OPut (bs "k"%string) (BVal (bs "1"%string)); OFetch (bs "k"%string);
          OPut (bs "k"%string) (BVal (bs "2"%string)); OFetch (bs "k"%string)].
  vm_compute. intro H. discriminate H.
Qed.

Print Assumptions lru_transparent_gen.
Print Assumptions lru_transparent.
Print Assumptions lru_bounded.
Print Assumptions decode_spec.
