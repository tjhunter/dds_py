(* The DBFS store of dds/codecs/databricks.py (C19).  The commit types that set_store accepts and the legacy codec
   aliases are finite tables, checked by evaluation.  Of DBFSStore.sync_paths, [sync_one_cases] says what one item does;
   which record it leaves and which locations it does not touch ([sync_one_record], [sync_one_other]) follow, and these
   are what the theorems per commit type and the histories of DbfsHistProofs.v use. *)
From Coq Require Import List Ascii String Bool Arith.
From DDS Require Import Base.Bytes Extracted.ConstDbfs L4_Eval.Store L5_Stores.AssocFacts L5_Stores.Dbfs.
Import ListNotations.
Local Open Scope string_scope.

(* every documented commit type is accepted, in the documented meaning; the member names too; default = full *)
Theorem documented_types_accepted :
  decode_commit_type (Some "FULL") = Some CFull /\ decode_commit_type (Some "LINKS_ONLY") = Some CLink /\
  decode_commit_type (Some "NONE") = Some CNone /\ decode_commit_type None = Some CFull /\
  decode_commit_type (Some "LINK_ONLY") = Some CLink /\ decode_commit_type (Some "NO_COMMIT") = Some CNone /\
  decode_commit_type (Some "EVERYTHING") = None.
Proof. vm_compute. repeat split; reflexivity. Qed.

(* legacy references decode with the codec of the same kind (regenerated table) *)
Theorem legacy_aliases_kind_preserving : legacy_kind_preserving = true.
Proof. vm_compute. reflexivity. Qed.

(* What one item of sync_paths does: nothing ('none', or the record is up to date), or it puts the record - under 'full'
   after copying the blob, when there is one. *)
Lemma sync_one_cases : forall s fs p k,
  (sync_one s fs (p, k) = fs /\ (d_ct s = CNone \/ alookup (redir_uri s p) fs = Some (record_of k))) \/
  (d_ct s <> CNone /\ exists fs1, sync_one s fs (p, k) = aupdate (redir_uri s p) (record_of k) fs1 /\
     (fs1 = fs \/ d_ct s = CFull /\ exists c, alookup (blob_uri s k) fs = Some c /\ fs1 = aupdate (obj_uri s p) c fs)).
Proof.
  intros s fs p k. unfold sync_one. destruct (d_ct s).
  - (* full: the record is put in fs1 = fs with the blob copied, when there is one *)
    destruct (alookup (redir_uri s p) fs) as [r|]; [destruct (bytes_eqb_spec r (record_of k)) as [->|_]|].
    + (* record up to date *) left. auto.
    + (* record differs *) right. split; [discriminate|].
      destruct (alookup (blob_uri s k) fs) as [c|].
      * exists (aupdate (obj_uri s p) c fs). split; [reflexivity|]. right. eauto.
      * exists fs. auto.
    + (* no record *) right. split; [discriminate|].
      destruct (alookup (blob_uri s k) fs) as [c|].
      * exists (aupdate (obj_uri s p) c fs). split; [reflexivity|]. right. eauto.
      * exists fs. auto.
  - (* links_only: fs1 = fs *)
    destruct (alookup (redir_uri s p) fs) as [r|]; [destruct (bytes_eqb_spec r (record_of k)) as [->|_]|].
    + (* record up to date *) left. auto.
    + (* record differs *) right. split; [discriminate|]. exists fs. auto.
    + (* no record *) right. split; [discriminate|]. exists fs. auto.
  - (* none *) left. auto.
Qed.

Lemma sync_one_record : forall s fs p k, d_ct s <> CNone ->
  alookup (redir_uri s p) (sync_one s fs (p, k)) = Some (record_of k).
Proof.
  intros s fs p k Hct. destruct (sync_one_cases s fs p k) as [[-> [H|H]]|[_ [fs1 [-> _]]]].
  - contradiction.
  - exact H.
  - apply alookup_aupdate_same.
Qed.

Lemma sync_one_other : forall s fs p k u,
  u <> redir_uri s p -> (d_ct s = CFull -> u <> obj_uri s p) ->
  alookup u (sync_one s fs (p, k)) = alookup u fs.
Proof.
  intros s fs p k u Hr Ho. destruct (sync_one_cases s fs p k) as [[-> _]|[_ [fs1 [-> H]]]]; [reflexivity|].
  rewrite alookup_aupdate_other by exact Hr.
  destruct H as [->|[Hct [c [_ ->]]]]; [reflexivity | apply alookup_aupdate_other; auto].
Qed.

Theorem commit_none : forall i d fs item, sync_one (DStore i d CNone) fs item = fs.
Proof. intros i d fs [segs key]. reflexivity. Qed.

Theorem commit_writes_record : forall i d ct fs segs key,
  ct <> CNone -> fetch_record (DStore i d ct) (sync_one (DStore i d ct) fs (segs, key)) segs = Some (record_of key).
Proof. intros i d ct fs segs key Hct. apply sync_one_record. exact Hct. Qed.

Theorem commit_full_copies : forall i d fs segs key c,
  alookup (blob_uri (DStore i d CFull) key) fs = Some c ->
  alookup (redir_uri (DStore i d CFull) segs) fs = None ->
  obj_uri (DStore i d CFull) segs <> redir_uri (DStore i d CFull) segs ->
  alookup (obj_uri (DStore i d CFull) segs) (sync_one (DStore i d CFull) fs (segs, key)) = Some c.
Proof.
  intros i d fs segs key c Hb Hr Hne. unfold sync_one. cbn [d_ct]. rewrite Hr, Hb.
  rewrite alookup_aupdate_other by exact Hne. apply alookup_aupdate_same.
Qed.

Theorem commit_links_no_copy : forall i d fs segs key u,
  u <> redir_uri (DStore i d CLink) segs ->
  alookup u (sync_one (DStore i d CLink) fs (segs, key)) = alookup u fs.
Proof. intros i d fs segs key u Hne. apply sync_one_other; [exact Hne | discriminate]. Qed.
