(* Histories of the DBFS store (C19b): [drun] of DbfsHist.v, a sequence of blob writes and of DBFSStore.sync_paths calls
   (dds/codecs/databricks.py) with several (path, key) items.
   What a history can have written: [written] lists the three kinds of location (blob; record, unless commit type 'none';
   copy, under 'full'), [drun_written] shows every entry of the final file system is of one of them, and the three
   theorems per commit type read it off.
   What a history of admissible operations ([hist_ok]) establishes: [hist_inv] carries any relation Inv between the
   file system and the dictionary of the abstract run ([abs_run]) along the history, given that a blob write and a single
   item ([sync_one]) keep it; [hist_inv_fs] is the case where Inv ignores the dictionary.  Its instances:
   [Ref] (the record of each well-formed path is the dictionary entry: [sync_refines_dictionary]),
   [Cop] (under 'full' each record has a byte-identical copy: [full_keeps_identical_copies]), and
   "this blob has this content" ([hist_keeps_blob], which gives [commits_never_touch_blobs]).
   The location lemmas at the top ([blob_ne_obj], [blob_ne_redir], [obj_ne_redir], [redir_uri_eq], [obj_uri_eq]) are
   where [dirs_apart] and [wf_path] are used.  The file ends with a history satisfying all hypotheses and with two
   examples refuting the statements without them (a path under the reserved directory; 'links only' followed by 'full'). *)
From Coq Require Import List Ascii String Bool Arith.
From DDS Require Import Base.Bytes L4_Eval.Store L5_Stores.AssocFacts L5_Stores.Dbfs L5_Stores.DbfsProofs L5_Stores.DbfsHist.
Import ListNotations.
Local Open Scope string_scope.
Local Open Scope list_scope.

Lemma is_prefix_app : forall (a b x y : bytes), a ++ x = b ++ y -> is_prefix a b = true \/ is_prefix b a = true.
Proof.
  induction a as [|c a IH]; intros [|d b] x y H; auto.
  injection H as <- Ht. cbn [is_prefix]. rewrite Ascii.eqb_refl. exact (IH b x y Ht).
Qed.

Lemma apart_ne : forall s x y, dirs_apart s = true -> d_internal s ++ slashb ++ x <> d_data s ++ slashb ++ y.
Proof.
  intros s x y Hap H. rewrite !app_assoc in H. apply is_prefix_app in H.
  unfold dirs_apart in Hap. apply andb_prop in Hap. destruct Hap as [H1 H2].
  apply negb_true_iff in H1, H2. destruct H; congruence.
Qed.

Lemma blob_ne_obj : forall s k p, dirs_apart s = true -> blob_uri s k <> obj_uri s p.
Proof. intros s k p. exact (apart_ne s (bs "blobs/" ++ k) (join slashb p)). Qed.
Lemma blob_ne_redir : forall s k p, dirs_apart s = true -> blob_uri s k <> redir_uri s p.
Proof. intros s k p. exact (apart_ne s (bs "blobs/" ++ k) (bs "_dds_meta/" ++ join slashb p)). Qed.

Lemma slash_free_app_slash : forall a x, slash_free (a ++ "/"%char :: x) = false.
Proof. intros a x. unfold slash_free. rewrite forallb_app. apply andb_false_r. Qed.

Lemma slash_free_split : forall a b x y, slash_free a = true -> slash_free b = true ->
  a ++ "/"%char :: x = b ++ "/"%char :: y -> a = b.
Proof.
  unfold slash_free. induction a as [|c a IH]; intros [|d b] x y Ha Hb H; cbn [app forallb] in *.
  - reflexivity.
  - injection H as <- _. discriminate Hb.
  - injection H as -> _. discriminate Ha.
  - injection H as <- Ht. apply andb_prop in Ha, Hb. f_equal. apply (IH b x y); [apply Ha | apply Hb | exact Ht].
Qed.

(* the copy of a well-formed path is never the record of any path: its first segment is not the reserved directory *)
Lemma obj_ne_redir : forall s p q, wf_path p = true -> obj_uri s p <> redir_uri s q.
Proof.
  intros s p q Hp H. unfold obj_uri, redir_uri in H. apply app_inv_head in H.
  change ("/"%char :: join slashb p = "/"%char :: (reserved ++ "/"%char :: join slashb q)) in H. injection H as H.
  destruct p as [|h r]; [discriminate|].
  cbn [wf_path forallb] in Hp. apply andb_prop in Hp. destruct Hp as [Hall Hres].
  apply andb_prop in Hall. destruct Hall as [Hh _].
  assert (Hsf : slash_free h = true) by (destruct h; [discriminate | exact Hh]).
  destruct r as [|x r].
  - change (h = reserved ++ "/"%char :: join slashb q) in H. subst h. rewrite slash_free_app_slash in Hsf. discriminate.
  - change (h ++ "/"%char :: join slashb (x :: r) = reserved ++ "/"%char :: join slashb q) in H.
    apply slash_free_split in H; [|exact Hsf|reflexivity]. subst h. rewrite bytes_eqb_refl in Hres. discriminate.
Qed.

Lemma redir_uri_eq : forall s p q, redir_uri s p = redir_uri s q <-> seg_key p = seg_key q.
Proof.
  intros s p q. unfold redir_uri, seg_key. split; [|intros ->; reflexivity].
  intros H. do 2 apply app_inv_head in H. exact H.
Qed.
Lemma obj_uri_eq : forall s p q, obj_uri s p = obj_uri s q <-> seg_key p = seg_key q.
Proof.
  intros s p q. unfold obj_uri, seg_key. split; [|intros ->; reflexivity].
  intros H. do 2 apply app_inv_head in H. exact H.
Qed.

Lemma record_of_inj : forall k1 k2, record_of k1 = record_of k2 -> k1 = k2.
Proof. intros k1 k2 H. unfold record_of in H. apply app_inv_head in H. apply app_inv_tail in H. exact H. Qed.

Lemma sync_one_blob : forall s fs it k, dirs_apart s = true ->
  alookup (blob_uri s k) (sync_one s fs it) = alookup (blob_uri s k) fs.
Proof.
  intros s fs [p k0] k Hap. apply sync_one_other; [apply blob_ne_redir | intros _; apply blob_ne_obj]; exact Hap.
Qed.

Lemma drun_cons : forall s fs o r,
  drun s fs (o :: r) = (fst (drun s (fst (dstep s fs o)) r), snd (dstep s fs o) :: snd (drun s (fst (dstep s fs o)) r)).
Proof. intros s fs o r. cbn [drun]. destruct (dstep s fs o) as [fs1 ok]. cbn [fst snd]. destruct (drun s fs1 r). reflexivity. Qed.

(* the state a history ends in, given as in the statements below *)
Lemma drun_fst : forall s fs ops fs' oks, drun s fs ops = (fs', oks) -> fs' = fst (drun s fs ops).
Proof. intros s fs ops fs' oks H. rewrite H. reflexivity. Qed.

Definition written (s : dstore) (u c : bytes) : Prop :=
  (exists k, u = blob_uri s k) \/
  (d_ct s <> CNone /\ exists p k, u = redir_uri s p /\ c = record_of k) \/
  (d_ct s = CFull /\ exists p, u = obj_uri s p).

Lemma sync_one_entries : forall s fs it u c,
  alookup u (sync_one s fs it) = Some c -> alookup u fs = Some c \/ written s u c.
Proof.
  intros s fs [p k] u c H. destruct (sync_one_cases s fs p k) as [[E _]|[Hct [fs1 [E Hfs1]]]]; rewrite E in H; [auto|].
  rewrite alookup_aupdate in H. destruct (bytes_eqb_spec u (redir_uri s p)) as [->|_].
  - injection H as <-. right. right. left. eauto.
  - destruct Hfs1 as [->|[Hfull [c0 [_ ->]]]]; [auto|].
    rewrite alookup_aupdate in H. destruct (bytes_eqb_spec u (obj_uri s p)) as [->|_]; [|auto].
    right. right. right. eauto.
Qed.

Lemma sync_paths_entries : forall s items fs u c,
  alookup u (fst (sync_paths s fs items)) = Some c -> alookup u fs = Some c \/ written s u c.
Proof.
  intros s items. induction items as [|it r IH]; intros fs u c H; [auto|].
  cbn [sync_paths] in H. destruct (sync_one_ok s fs it); [|auto].
  destruct (IH _ _ _ H) as [H1|H1]; [exact (sync_one_entries _ _ _ _ _ H1) | auto].
Qed.

Lemma drun_entries : forall s ops fs u c,
  alookup u (fst (drun s fs ops)) = Some c -> alookup u fs = Some c \/ written s u c.
Proof.
  intros s ops. induction ops as [|o r IH]; intros fs u c H; [auto|].
  rewrite drun_cons in H. destruct (IH _ _ _ H) as [H1|H1]; [|auto].
  destruct o as [k0 c0|items]; cbn [dstep fst] in H1; [|exact (sync_paths_entries _ _ _ _ _ H1)].
  rewrite alookup_aupdate in H1. destruct (bytes_eqb_spec u (blob_uri s k0)) as [->|_]; [|auto].
  right. left. eauto.
Qed.

Lemma drun_written : forall s ops fs oks u c, drun s [] ops = (fs, oks) -> alookup u fs = Some c -> written s u c.
Proof.
  intros s ops fs oks u c Hrun Hu. rewrite (drun_fst _ _ _ _ _ Hrun) in Hu.
  destruct (drun_entries _ _ _ _ _ Hu) as [H|H]; [discriminate | exact H].
Qed.

Theorem links_only_writes_only_records : forall s ops fs oks,
  d_ct s = CLink -> drun s [] ops = (fs, oks) ->
  forall u c, alookup u fs = Some c ->
    (exists k, u = blob_uri s k) \/ (exists p k, u = redir_uri s p /\ c = record_of k).
Proof.
  intros s ops fs oks Hct Hrun u c Hu.
  destruct (drun_written _ _ _ _ _ _ Hrun Hu) as [H | [[_ H] | [H _]]]; [auto | auto | congruence].
Qed.

Theorem none_writes_only_blobs : forall s ops fs oks,
  d_ct s = CNone -> drun s [] ops = (fs, oks) ->
  forall u c, alookup u fs = Some c -> exists k, u = blob_uri s k.
Proof.
  intros s ops fs oks Hct Hrun u c Hu.
  destruct (drun_written _ _ _ _ _ _ Hrun Hu) as [H | [[H _] | [H _]]]; [exact H | congruence | congruence].
Qed.

Theorem full_writes_only_records_and_copies : forall s ops fs oks,
  d_ct s = CFull -> drun s [] ops = (fs, oks) ->
  forall u c, alookup u fs = Some c ->
    (exists k, u = blob_uri s k) \/ (exists p k, u = redir_uri s p /\ c = record_of k) \/ (exists p, u = obj_uri s p).
Proof.
  intros s ops fs oks Hct Hrun u c Hu.
  destruct (drun_written _ _ _ _ _ _ Hrun Hu) as [H | [[_ H] | [_ H]]]; auto.
Qed.

Lemma hist_completes : forall s ops fs,
  hist_ok s fs ops = true -> forallb (fun b : bool => b) (snd (drun s fs ops)) = true.
Proof.
  intros s ops. induction ops as [|o r IH]; intros fs Hh; [reflexivity|].
  rewrite drun_cons. cbn [snd forallb hist_ok] in *. apply andb_prop in Hh. destruct Hh as [Hop Hrest].
  rewrite (IH _ Hrest), andb_true_r. destruct o as [k c|items]; [reflexivity|].
  cbn [op_ok dstep] in *. apply andb_prop in Hop. apply Hop.
Qed.

Theorem admissible_history_completes : forall s ops fs oks,
  hist_ok s [] ops = true -> drun s [] ops = (fs, oks) -> forallb (fun b : bool => b) oks = true.
Proof. intros s ops fs oks Hh Hrun. apply hist_completes in Hh. rewrite Hrun in Hh. exact Hh. Qed.

Section HistInv.
  Variable s : dstore.
  Variable Inv : rfs -> list (bytes * bytes) -> Prop.
  Hypothesis Hblob : forall fs m k c, op_ok s fs (DBlob k c) = true -> Inv fs m -> Inv (aupdate (blob_uri s k) c fs) m.
  Hypothesis Hitem : forall fs m p k, wf_path p = true -> sync_one_ok s fs (p, k) = true ->
    Inv fs m -> Inv (sync_one s fs (p, k)) (aupdate (seg_key p) k m).

  Lemma sync_paths_inv : forall items fs m,
    forallb wf_path (map fst items) = true -> snd (sync_paths s fs items) = true -> Inv fs m ->
    Inv (fst (sync_paths s fs items)) (abs_sync m items).
  Proof.
    induction items as [|[p k] r IH]; intros fs m Hwf Hok Hi; [exact Hi|].
    cbn [map fst forallb sync_paths] in *. apply andb_prop in Hwf. destruct Hwf as [Hp Hr].
    destruct (sync_one_ok s fs (p, k)) eqn:E; [|discriminate]. apply IH; auto.
  Qed.

  Lemma hist_inv : forall ops fs m,
    hist_ok s fs ops = true -> Inv fs m -> Inv (fst (drun s fs ops)) (abs_run m ops).
  Proof.
    induction ops as [|o r IH]; intros fs m Hh Hi; [exact Hi|].
    rewrite drun_cons. cbn [fst hist_ok] in *. apply andb_prop in Hh. destruct Hh as [Hop Hrest].
    destruct o as [k c|items]; cbn [abs_run dstep fst] in *; apply IH; auto.
    cbn [op_ok] in Hop. apply andb_prop in Hop. destruct Hop as [Hop Hok]. apply andb_prop in Hop.
    apply sync_paths_inv; [apply Hop | exact Hok | exact Hi].
  Qed.
End HistInv.

(* the case of an invariant of the file system alone *)
Lemma hist_inv_fs : forall s (Inv : rfs -> Prop),
  (forall fs k c, op_ok s fs (DBlob k c) = true -> Inv fs -> Inv (aupdate (blob_uri s k) c fs)) ->
  (forall fs p k, wf_path p = true -> sync_one_ok s fs (p, k) = true -> Inv fs -> Inv (sync_one s fs (p, k))) ->
  forall ops fs, hist_ok s fs ops = true -> Inv fs -> Inv (fst (drun s fs ops)).
Proof.
  intros s Inv Hblob Hitem ops fs Hh H0.
  exact (hist_inv s (fun fs _ => Inv fs) (fun fs _ => Hblob fs) (fun fs _ => Hitem fs) ops fs [] Hh H0).
Qed.

Lemma blob_rewrite_same : forall s fs k0 c0 u,
  op_ok s fs (DBlob k0 c0) = true -> forall c, alookup u fs = Some c -> alookup u (aupdate (blob_uri s k0) c0 fs) = Some c.
Proof.
  intros s fs k0 c0 u Hop c Hu. cbn [op_ok] in Hop. rewrite alookup_aupdate.
  destruct (bytes_eqb_spec u (blob_uri s k0)) as [->|_]; [|exact Hu].
  rewrite Hu in Hop. apply bytes_eqb_eq in Hop. congruence.
Qed.

Lemma hist_keeps_blob : forall s ops fs k c,
  dirs_apart s = true -> hist_ok s fs ops = true ->
  alookup (blob_uri s k) fs = Some c -> alookup (blob_uri s k) (fst (drun s fs ops)) = Some c.
Proof.
  intros s ops fs k c Hap Hh. apply (hist_inv_fs s (fun fs => alookup (blob_uri s k) fs = Some c)); [| |exact Hh].
  - intros fs0 k0 c0 Hop. apply (blob_rewrite_same _ _ _ _ _ Hop).
  - intros fs0 p k0 _ _. rewrite sync_one_blob by exact Hap. auto.
Qed.

Lemma hist_blob_in : forall s ops fs k c,
  dirs_apart s = true -> hist_ok s fs ops = true ->
  In (DBlob k c) ops -> alookup (blob_uri s k) (fst (drun s fs ops)) = Some c.
Proof.
  intros s ops. induction ops as [|o r IH]; intros fs k c Hap Hh Hin; [destruct Hin|].
  rewrite drun_cons. cbn [fst hist_ok] in *. apply andb_prop in Hh. destruct Hh as [_ Hrest].
  destruct Hin as [->|Hin]; [|auto].
  apply hist_keeps_blob; [exact Hap | exact Hrest | apply alookup_aupdate_same].
Qed.

Theorem commits_never_touch_blobs : forall s ops fs oks,
  dirs_apart s = true -> hist_ok s [] ops = true -> drun s [] ops = (fs, oks) ->
  forall k c, In (DBlob k c) ops -> alookup (blob_uri s k) fs = Some c.
Proof.
  intros s ops fs oks Hap Hh Hrun k c Hin. rewrite (drun_fst _ _ _ _ _ Hrun). exact (hist_blob_in _ _ _ k c Hap Hh Hin).
Qed.

Definition Ref (s : dstore) (fs : rfs) (m : list (bytes * bytes)) : Prop :=
  forall p, wf_path p = true -> fetch_record s fs p = option_map record_of (alookup (seg_key p) m).

Lemma sync_one_ref : forall s fs m segs key,
  d_ct s <> CNone -> wf_path segs = true -> Ref s fs m ->
  Ref s (sync_one s fs (segs, key)) (aupdate (seg_key segs) key m).
Proof.
  intros s fs m segs key Hct Hwf HR p Hp. unfold fetch_record. rewrite alookup_aupdate.
  destruct (bytes_eqb_spec (seg_key p) (seg_key segs)) as [E|E].
  - apply (redir_uri_eq s) in E. rewrite E. apply sync_one_record. exact Hct.
  - rewrite sync_one_other; [exact (HR p Hp) | |].
    + intros H. apply redir_uri_eq in H. exact (E H).
    + intros _ H. exact (obj_ne_redir s segs p Hwf (eq_sym H)).
Qed.

Lemma blob_ref : forall s fs m k0 c0, dirs_apart s = true -> Ref s fs m -> Ref s (aupdate (blob_uri s k0) c0 fs) m.
Proof.
  intros s fs m k0 c0 Hap HR p Hp. unfold fetch_record. rewrite alookup_aupdate_other; [exact (HR p Hp)|].
  intros H. exact (blob_ne_redir s k0 p Hap (eq_sym H)).
Qed.

Theorem sync_refines_dictionary : forall s ops fs oks,
  d_ct s <> CNone -> dirs_apart s = true -> hist_ok s [] ops = true -> drun s [] ops = (fs, oks) ->
  forall p, wf_path p = true ->
    fetch_record s fs p = option_map record_of (alookup (seg_key p) (abs_run [] ops)).
Proof.
  intros s ops fs oks Hct Hap Hh Hrun. rewrite (drun_fst _ _ _ _ _ Hrun). apply (hist_inv s (Ref s)).
  - intros fs0 m k c _. apply blob_ref. exact Hap.
  - intros fs0 m p k Hp _. apply sync_one_ref; assumption.
  - exact Hh.
  - intros p Hp. reflexivity.
Qed.

(* 'full' keeps a byte-identical copy beside every record: an invariant of the file system alone *)
Definition Cop (s : dstore) (fs : rfs) : Prop :=
  forall p k, wf_path p = true -> fetch_record s fs p = Some (record_of k) ->
    exists c, alookup (blob_uri s k) fs = Some c /\ alookup (obj_uri s p) fs = Some c.

Lemma sync_one_full : forall s fs p k, d_ct s = CFull -> sync_one_ok s fs (p, k) = true ->
  sync_one s fs (p, k) = fs \/
  exists c, alookup (blob_uri s k) fs = Some c /\
    sync_one s fs (p, k) = aupdate (redir_uri s p) (record_of k) (aupdate (obj_uri s p) c fs).
Proof.
  intros s fs p k Hct Hok. unfold sync_one_ok, sync_one in *. rewrite Hct in *.
  (* under 'full' an item is admissible when its record is up to date or its blob is there to be copied *)
  destruct (alookup (redir_uri s p) fs) as [r|]; [destruct (bytes_eqb r (record_of k))|].
  - (* record up to date *) auto.
  - (* record differs *) destruct (alookup (blob_uri s k) fs) as [c|]; [eauto | discriminate].
  - (* no record *) destruct (alookup (blob_uri s k) fs) as [c|]; [eauto | discriminate].
Qed.

Lemma sync_one_cop : forall s fs segs key,
  d_ct s = CFull -> dirs_apart s = true -> wf_path segs = true -> sync_one_ok s fs (segs, key) = true ->
  Cop s fs -> Cop s (sync_one s fs (segs, key)).
Proof.
  intros s fs segs key Hct Hap Hwf Hok HC p k Hp Hrec. unfold fetch_record in Hrec.
  assert (Hblob := sync_one_blob s fs (segs, key) k Hap).
  destruct (sync_one_full _ _ _ _ Hct Hok) as [E|[c [Hb E]]]; rewrite E in *; [exact (HC p k Hp Hrec)|].
  rewrite Hblob. rewrite alookup_aupdate in Hrec.
  rewrite (alookup_aupdate_other _ (redir_uri s segs) (obj_uri s p)) by (apply obj_ne_redir; exact Hp).
  destruct (bytes_eqb_spec (redir_uri s p) (redir_uri s segs)) as [E1|E1].
  - (* the path just committed: its record names the key, the copy is the blob *)
    assert (Hk : k = key) by (apply record_of_inj; congruence). subst k.
    apply redir_uri_eq, (obj_uri_eq s) in E1. rewrite E1, alookup_aupdate_same. eauto.
  - (* another path: neither its record nor its copy has been written *)
    rewrite alookup_aupdate_other in Hrec by (intro H; exact (obj_ne_redir s segs p Hwf (eq_sym H))).
    rewrite alookup_aupdate_other; [exact (HC p k Hp Hrec)|].
    intro H. apply obj_uri_eq, (redir_uri_eq s) in H. exact (E1 H).
Qed.

Lemma blob_cop : forall s fs k0 c0,
  dirs_apart s = true -> op_ok s fs (DBlob k0 c0) = true -> Cop s fs -> Cop s (aupdate (blob_uri s k0) c0 fs).
Proof.
  intros s fs k0 c0 Hap Hop HC p k Hp Hrec. unfold fetch_record in Hrec.
  rewrite alookup_aupdate_other in Hrec by (intro H; exact (blob_ne_redir s k0 p Hap (eq_sym H))).
  destruct (HC p k Hp Hrec) as [c [Hb Ho]]. exists c. split; apply (blob_rewrite_same _ _ _ _ _ Hop); assumption.
Qed.

Theorem full_keeps_identical_copies : forall s ops fs oks,
  d_ct s = CFull -> dirs_apart s = true -> hist_ok s [] ops = true -> drun s [] ops = (fs, oks) ->
  forall p k, wf_path p = true -> alookup (seg_key p) (abs_run [] ops) = Some k ->
    exists c, alookup (blob_uri s k) fs = Some c /\ alookup (obj_uri s p) fs = Some c.
Proof.
  intros s ops fs oks Hct Hap Hh Hrun p k Hp Hk.
  (* the entry of the dictionary is the record of p in the file system *)
  assert (Hnone : d_ct s <> CNone) by (rewrite Hct; discriminate).
  pose proof (sync_refines_dictionary s ops fs oks Hnone Hap Hh Hrun p Hp) as Hrec. rewrite Hk in Hrec.
  (* and every record has its copy: Cop holds of the empty file system, and each operation keeps it *)
  assert (HC : Cop s (fst (drun s [] ops))).
  { apply (hist_inv_fs s (Cop s)).
    - intros fs0 k0 c Hop. apply blob_cop; assumption.
    - intros fs0 p0 k0 Hp0 Hok. apply sync_one_cop; assumption.
    - exact Hh.
    - (* no record yet *) intros p0 k0 _ H. discriminate H. }
  rewrite <- (drun_fst _ _ _ _ _ Hrun) in HC. exact (HC p k Hp Hrec).
Qed.

Theorem hypotheses_satisfiable :
  let s := DStore (bs "dbfs:/s/internal") (bs "dbfs:/s/data") CFull in
  dirs_apart s = true /\
  hist_ok s [] [DBlob (bs "k1") (bs "one"); DBlob (bs "k2") (bs "two");
                DSync [([bs "x"], bs "k1"); ([bs "d"; bs "y"], bs "k1")];
                DSync [([bs "x"], bs "k2"); ([bs "z"], bs "k1")]] = true.
Proof. vm_compute. split; reflexivity. Qed.

Theorem reserved_first_segment_refuted :
  exists s ops p k,
    d_ct s = CFull /\ dirs_apart s = true /\ forallb (fun b : bool => b) (snd (drun s [] ops)) = true /\
    wf_path p = true /\ alookup (seg_key p) (abs_run [] ops) = Some k /\
    fetch_record s (fst (drun s [] ops)) p <> Some (record_of k).
Proof.
  exists (DStore (bs "dbfs:/s/internal") (bs "dbfs:/s/data") CFull).
  exists [DBlob (bs "k1") (bs "one"); DBlob (bs "k2") (bs "two");
          DSync [([bs "x"], bs "k1")]; DSync [([bs "_dds_meta"; bs "x"], bs "k2")]].
  exists [bs "x"]. exists (bs "k1").
  vm_compute. repeat split. discriminate.
Qed.

Theorem links_then_full_leaves_no_copy_refuted :
  exists i d ops1 ops2 p k,
    let s1 := DStore i d CLink in let s2 := DStore i d CFull in
    let fs1 := fst (drun s1 [] ops1) in let fs2 := fst (drun s2 fs1 ops2) in
    dirs_apart s2 = true /\ hist_ok s1 [] ops1 = true /\ hist_ok s2 fs1 ops2 = true /\
    wf_path p = true /\ In (DSync [(p, k)]) ops2 /\ fetch_record s2 fs2 p = Some (record_of k) /\
    alookup (obj_uri s2 p) fs2 = None.
Proof.
  exists (bs "dbfs:/s/internal"). exists (bs "dbfs:/s/data").
  exists [DBlob (bs "k1") (bs "one"); DSync [([bs "x"], bs "k1")]].
  exists [DSync [([bs "x"], bs "k1")]].
  exists [bs "x"]. exists (bs "k1").
  vm_compute. repeat split. left. reflexivity.
Qed.
