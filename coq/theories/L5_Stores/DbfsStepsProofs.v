(* The DBFS store at the level of single dbutils writes (C19c): [run_steps] / [run_interrupted] of DbfsSteps.v, for
   store_blob and DBFSStore.sync_paths of dds/codecs/databricks.py.
   Order of the writes inside an operation: Section [Guarded] is about any family of (marker M x, datum D x) locations.
   [guarded]: no marker present without its datum; [ok fs w]: if w writes onto a marker, the datum is there.  Under the
   four hypotheses [Hwblob], [Hwmeta], [Hwcopy], [Hwrecord] (one per kind of write: it is [ok] where the model emits it)
   [run_interrupted_guarded] gives [guarded] after any prefix of the writes of any well-formed history.
   [marker_after_data] (M = metadata of a blob, D = the blob) and [copy_before_record] (M = record, D = copy) instantiate
   the section; the four bullets of each discharge the four hypotheses.
   Agreement with DbfsHist.v: [Rel] is equality of two file systems off the metadata files, which only this level writes.
   One item keeps it ([rel_sync_one]: it reads only non-metadata locations), hence [rel_items], [rel_run], and
   [steps_refine_histories] is [rel_run] from the empty file system. *)
From Coq Require Import List Ascii String Bool Arith.
From DDS Require Import Base.Bytes L4_Eval.Store L5_Stores.AssocFacts L5_Stores.Dbfs L5_Stores.DbfsProofs L5_Stores.DbfsHist
  L5_Stores.DbfsHistProofs L5_Stores.DbfsSteps.
Import ListNotations.
Local Open Scope string_scope.
Local Open Scope list_scope.

Definition nonmeta (s : dstore) (u : bytes) : Prop := forall k, u <> meta_uri s k.

Lemma blob_nonmeta : forall s k, all_hex k = true -> nonmeta s (blob_uri s k).
Proof.
  intros s k Hh k' H. unfold meta_uri, blob_uri in H. rewrite <- !app_assoc in H.
  do 2 apply app_inv_head in H. subst k. unfold all_hex in Hh. rewrite forallb_app in Hh.
  apply andb_prop in Hh. destruct Hh as [_ Hh]. vm_compute in Hh. discriminate.
Qed.

Lemma meta_uri_inj : forall s k1 k2, meta_uri s k1 = meta_uri s k2 -> k1 = k2.
Proof.
  intros s k1 k2 H. unfold meta_uri, blob_uri in H. apply app_inv_tail in H. do 2 apply app_inv_head in H. exact H.
Qed.

Lemma meta_uri_internal : forall s k, meta_uri s k = d_internal s ++ slashb ++ bs "blobs/" ++ k ++ bs ".meta".
Proof. intros s k. unfold meta_uri, blob_uri. rewrite <- !app_assoc. reflexivity. Qed.

Lemma obj_nonmeta : forall s p, dirs_apart s = true -> nonmeta s (obj_uri s p).
Proof. intros s p Hap k H. rewrite meta_uri_internal in H. exact (apart_ne s _ (join slashb p) Hap (eq_sym H)). Qed.
Lemma redir_nonmeta : forall s p, dirs_apart s = true -> nonmeta s (redir_uri s p).
Proof.
  intros s p Hap k H. rewrite meta_uri_internal in H. exact (apart_ne s _ (bs "_dds_meta/" ++ join slashb p) Hap (eq_sym H)).
Qed.

Definition target (s : dstore) (w : wstep) : bytes :=
  match w with
  | WBlob k _ => blob_uri s k
  | WMeta k => meta_uri s k
  | WCopy p _ => obj_uri s p
  | WRecord p _ => redir_uri s p
  end.

Lemma apply_step_other : forall s fs w u, u <> target s w -> alookup u (apply_step s fs w) = alookup u fs.
Proof.
  intros s fs w u Hu. destruct w as [k c | k | p k | p k]; cbn [apply_step target] in *;
    try (apply alookup_aupdate_other; exact Hu).
  destruct (alookup (blob_uri s k) fs); [apply alookup_aupdate_other; exact Hu | reflexivity].
Qed.

Definition present (u : bytes) (fs : rfs) : Prop := exists c, alookup u fs = Some c.

Lemma aupdate_keeps : forall u k (v : bytes) (fs : rfs), present u fs -> present u (aupdate k v fs).
Proof. intros u k v fs [c H]. unfold present. rewrite alookup_aupdate. destruct (bytes_eqb u k); eauto. Qed.

Lemma apply_step_keeps : forall s fs w u, present u fs -> present u (apply_step s fs w).
Proof.
  intros s fs w u H. destruct w as [k c0 | k | p k | p k]; cbn [apply_step]; try exact (aupdate_keeps _ _ _ _ H).
  destruct (alookup (blob_uri s k) fs); [exact (aupdate_keeps _ _ _ _ H) | exact H].
Qed.

Lemma apply_steps_keeps : forall s ws fs u, present u fs -> present u (apply_steps s fs ws).
Proof. intros s ws. induction ws as [|w r IH]; intros fs u H; [exact H | apply IH, apply_step_keeps, H]. Qed.

Lemma run_steps_keeps : forall s ops fs u, present u fs -> present u (run_steps s fs ops).
Proof. intros s ops. induction ops as [|o r IH]; intros fs u H; [exact H | apply IH, apply_steps_keeps, H]. Qed.

Lemma has_blob_present : forall s fs k, has_blob s fs k = true <-> present (meta_uri s k) fs.
Proof.
  intros s fs k. unfold has_blob, present. destruct (alookup (meta_uri s k) fs) as [c|].
  - split; eauto.
  - split; [discriminate | intros [c H]; discriminate].
Qed.

Lemma apply_steps_app : forall s fs a b, apply_steps s fs (a ++ b) = apply_steps s (apply_steps s fs a) b.
Proof. intros s fs a b. apply fold_left_app. Qed.

(* Both write-order theorems say that a marker (the metadata of a blob, the record of a path) is never present without
   the datum it stands for (the blob, the copy).  That holds in every state, also inside an operation, because every
   write onto a marker finds the datum present. *)
Section Guarded.
  Variable s : dstore.
  Variables (X : Type) (M D : X -> bytes).

  Definition guarded (fs : rfs) : Prop := forall x, present (M x) fs -> present (D x) fs.
  Definition ok (fs : rfs) (w : wstep) : Prop := forall x, M x = target s w -> present (D x) fs.

  Lemma guarded_step : forall fs w, guarded fs -> ok fs w -> guarded (apply_step s fs w).
  Proof.
    intros fs w Hi Hw x Hm. apply apply_step_keeps. destruct (bytes_eqb_spec (M x) (target s w)) as [E|E].
    - exact (Hw x E).
    - apply (Hi x). unfold present in *. rewrite apply_step_other in Hm by exact E. exact Hm.
  Qed.

  Fixpoint steps_ok (fs : rfs) (ws : list wstep) : Prop :=
    match ws with
    | [] => True
    | w :: r => ok fs w /\ steps_ok (apply_step s fs w) r
    end.

  Lemma steps_ok_app : forall a b fs,
    steps_ok fs a -> steps_ok (apply_steps s fs a) b -> steps_ok fs (a ++ b).
  Proof.
    induction a as [|w a IH]; intros b fs Ha Hb; [exact Hb|].
    destruct Ha as [Hw Ha]. split; [exact Hw | exact (IH _ _ Ha Hb)].
  Qed.

  Lemma steps_ok_firstn : forall n ws fs, steps_ok fs ws -> steps_ok fs (firstn n ws).
  Proof.
    induction n as [|n IH]; intros [|w r] fs H; try exact I.
    destruct H as [Hw Hr]. split; [exact Hw | exact (IH _ _ Hr)].
  Qed.

  Lemma steps_ok_guarded : forall ws fs, guarded fs -> steps_ok fs ws -> guarded (apply_steps s fs ws).
  Proof.
    induction ws as [|w r IH]; intros fs Hi Hs; [exact Hi|].
    destruct Hs as [Hw Hr]. exact (IH _ (guarded_step _ _ Hi Hw) Hr).
  Qed.

  (* What the order of the writes inside an operation provides: the metadata is put where its blob is, and under
     'full' the record where its copy is. *)
  Hypothesis Hwblob : forall fs k c, all_hex k = true -> ok fs (WBlob k c).
  Hypothesis Hwmeta : forall fs k, present (blob_uri s k) fs -> ok fs (WMeta k).
  Hypothesis Hwcopy : forall fs p k, wf_path p = true -> ok fs (WCopy p k).
  Hypothesis Hwrecord : forall fs p k, (d_ct s = CFull -> present (obj_uri s p) fs) -> ok fs (WRecord p k).

  Lemma item_steps_ok : forall fs p k, wf_path p = true -> sync_one_ok s fs (p, k) = true ->
    steps_ok fs (steps_of_item s fs (p, k)).
  Proof.
    intros fs p k Hp Hok. unfold steps_of_item, sync_one_ok in *. destruct (d_ct s) eqn:Hct; [| |exact I].
    - (* full: the copy, then the record *)
      assert (H : (match alookup (blob_uri s k) fs with Some _ => true | None => false end) = true ->
                  steps_ok fs [WCopy p k; WRecord p k]).
      { cbn [steps_ok apply_step]. destruct (alookup (blob_uri s k) fs) as [c|]; [intros _|discriminate].
        split; [apply Hwcopy, Hp | split; [|exact I]]. apply Hwrecord. intros _. exists c. apply alookup_aupdate_same. }
      destruct (alookup (redir_uri s p) fs) as [r|]; [|auto].
      destruct (bytes_eqb r (record_of k)); cbn [negb]; [exact I | auto].
    - (* links_only: the record alone *)
      assert (H : steps_ok fs [WRecord p k]) by (split; [apply Hwrecord; congruence | exact I]).
      destruct (alookup (redir_uri s p) fs) as [r|]; [|exact H].
      destruct (bytes_eqb r (record_of k)); [exact I | exact H].
  Qed.

  Lemma op_steps_ok : forall fs o, op_wf o = true -> steps_ok fs (steps_of_op s fs o).
  Proof.
    intros fs o Hwf. unfold op_wf in Hwf. apply andb_prop in Hwf. destruct Hwf as [Hk Hp].
    destruct o as [k c|items]; cbn [steps_of_op op_keys op_paths forallb] in *.
    - apply andb_prop in Hk. split; [apply Hwblob, Hk | split; [|exact I]].
      apply Hwmeta. exists c. apply alookup_aupdate_same.
    - clear Hk. revert fs. induction items as [|[p k] r IH]; intros fs; [exact I|].
      cbn [map fst forallb steps_of_items] in *. apply andb_prop in Hp. destruct Hp as [Hp Hr].
      destruct (sync_one_ok s fs (p, k)) eqn:Hok; [|exact I]. apply steps_ok_app; auto using item_steps_ok.
  Qed.

  Lemma run_steps_guarded : forall ops fs, ops_wf ops = true -> guarded fs -> guarded (run_steps s fs ops).
  Proof.
    induction ops as [|o r IH]; intros fs Hwf Hi; [exact Hi|].
    apply andb_prop in Hwf. destruct Hwf as [Ho Hr].
    apply IH; [exact Hr|]. apply steps_ok_guarded; [exact Hi | exact (op_steps_ok _ _ Ho)].
  Qed.

  Lemma run_interrupted_guarded : forall ops last n,
    ops_wf (ops ++ [last]) = true -> guarded (run_interrupted s ops last n).
  Proof.
    intros ops last n Hwf. unfold ops_wf in Hwf. rewrite forallb_app in Hwf. apply andb_prop in Hwf.
    destruct Hwf as [Hops Hlast]. apply andb_prop in Hlast.
    apply steps_ok_guarded; [apply run_steps_guarded; [exact Hops|] | apply steps_ok_firstn, op_steps_ok, Hlast].
    intros x [c H]. discriminate.
  Qed.
End Guarded.

(* marker: the metadata of a blob; datum: the blob.  Only [WMeta] writes onto a marker. *)
Theorem marker_after_data : forall s ops last n,
  dirs_apart s = true -> ops_wf (ops ++ [last]) = true ->
  forall k, all_hex k = true -> has_blob s (run_interrupted s ops last n) k = true ->
    exists c, alookup (blob_uri s k) (run_interrupted s ops last n) = Some c.
Proof.
  intros s ops last n Hap Hwf k _ Hhas. apply has_blob_present in Hhas.
  assert (G : guarded _ (meta_uri s) (blob_uri s) (run_interrupted s ops last n)).
  { apply (run_interrupted_guarded s); [| | | |exact Hwf].
    - (* WBlob *) intros fs k0 c Hk0 x E. destruct (blob_nonmeta s k0 Hk0 x (eq_sym E)).
    - (* WMeta: onto the marker of its blob *) intros fs k0 Hb x E. apply meta_uri_inj in E. subst x. exact Hb.
    - (* WCopy *) intros fs p k0 _ x E. destruct (obj_nonmeta s p Hap x (eq_sym E)).
    - (* WRecord *) intros fs p k0 _ x E. destruct (redir_nonmeta s p Hap x (eq_sym E)). }
  exact (G k Hhas).
Qed.

(* marker: the record of a path; datum: the copy at the path.  Only [WRecord] writes onto a marker. *)
Theorem copy_before_record : forall s ops last n,
  d_ct s = CFull -> dirs_apart s = true -> ops_wf (ops ++ [last]) = true ->
  forall p k, wf_path p = true -> fetch_record s (run_interrupted s ops last n) p = Some (record_of k) ->
    exists c, alookup (obj_uri s p) (run_interrupted s ops last n) = Some c.
Proof.
  intros s ops last n Hct Hap Hwf p k _ Hrec.
  assert (G : guarded _ (redir_uri s) (obj_uri s) (run_interrupted s ops last n)).
  { apply (run_interrupted_guarded s); [| | | |exact Hwf].
    - (* WBlob *) intros fs k0 c _ q E. destruct (blob_ne_redir s k0 q Hap (eq_sym E)).
    - (* WMeta *) intros fs k0 _ q E. destruct (redir_nonmeta s q Hap k0 E).
    - (* WCopy *) intros fs p0 k0 Hp0 q E. destruct (obj_ne_redir s p0 q Hp0 (eq_sym E)).
    - (* WRecord: onto the marker of its copy *)
      intros fs p0 k0 Hobj q E. apply redir_uri_eq, (obj_uri_eq s) in E. rewrite E. exact (Hobj Hct). }
  exact (G p (ex_intro _ _ Hrec)).
Qed.

Definition Rel (s : dstore) (fs1 fs2 : rfs) : Prop := forall u, nonmeta s u -> alookup u fs1 = alookup u fs2.

Lemma rel_aupdate : forall s fs1 fs2 u v, Rel s fs1 fs2 -> Rel s (aupdate u v fs1) (aupdate u v fs2).
Proof.
  intros s fs1 fs2 u v HR u' Hu'. rewrite !alookup_aupdate. destruct (bytes_eqb u' u); [reflexivity | exact (HR u' Hu')].
Qed.
Lemma rel_meta : forall s fs1 fs2 k v, Rel s fs1 fs2 -> Rel s (aupdate (meta_uri s k) v fs1) fs2.
Proof. intros s fs1 fs2 k v HR u Hu. rewrite alookup_aupdate_other by exact (Hu k). exact (HR u Hu). Qed.

Lemma steps_item_sync_one : forall s fs it, apply_steps s fs (steps_of_item s fs it) = sync_one s fs it.
Proof.
  intros s fs [p k]. unfold steps_of_item, sync_one.
  destruct (d_ct s), (alookup (redir_uri s p) fs) as [r|]; try destruct (bytes_eqb r (record_of k)); reflexivity.
Qed.

(* an item reads the record of its path and its blob, neither of which is a metadata file *)
Lemma rel_sync_one : forall s fs1 fs2 p k, dirs_apart s = true -> all_hex k = true -> Rel s fs1 fs2 ->
  sync_one_ok s fs1 (p, k) = sync_one_ok s fs2 (p, k) /\ Rel s (sync_one s fs1 (p, k)) (sync_one s fs2 (p, k)).
Proof.
  intros s fs1 fs2 p k Hap Hk HR. unfold sync_one_ok, sync_one.
  rewrite <- (HR (redir_uri s p) (redir_nonmeta s p Hap)), <- (HR (blob_uri s k) (blob_nonmeta s k Hk)).
  split; [reflexivity|].
  (* with the two reads equal, both sides take the same branch and make the same writes, which [rel_aupdate] follows *)
  destruct (d_ct s).
  - (* full *) destruct (alookup (redir_uri s p) fs1) as [r|]; [destruct (bytes_eqb r (record_of k))|].
    + (* record up to date *) exact HR.
    + (* record differs *) destruct (alookup (blob_uri s k) fs1); repeat apply rel_aupdate; exact HR.
    + (* no record *) destruct (alookup (blob_uri s k) fs1); repeat apply rel_aupdate; exact HR.
  - (* links only *) destruct (alookup (redir_uri s p) fs1) as [r|]; [destruct (bytes_eqb r (record_of k))|].
    + (* record up to date *) exact HR.
    + (* record differs *) apply rel_aupdate, HR.
    + (* no record *) apply rel_aupdate, HR.
  - (* none *) exact HR.
Qed.

Lemma rel_items : forall s items fs1 fs2, dirs_apart s = true -> forallb all_hex (map snd items) = true ->
  Rel s fs1 fs2 -> Rel s (apply_steps s fs1 (steps_of_items s fs1 items)) (fst (sync_paths s fs2 items)).
Proof.
  intros s items. induction items as [|[p k] r IH]; intros fs1 fs2 Hap Hwf HR; [exact HR|].
  cbn [map snd forallb] in Hwf. apply andb_prop in Hwf. destruct Hwf as [Hk Hr].
  destruct (rel_sync_one s fs1 fs2 p k Hap Hk HR) as [Hok HR'].
  cbn [steps_of_items sync_paths]. rewrite <- Hok. destruct (sync_one_ok s fs1 (p, k)); [|exact HR].
  rewrite apply_steps_app, steps_item_sync_one. apply IH; assumption.
Qed.

Lemma rel_run : forall s ops fs1 fs2, dirs_apart s = true -> ops_wf ops = true -> Rel s fs1 fs2 ->
  Rel s (run_steps s fs1 ops) (fst (drun s fs2 ops)).
Proof.
  intros s ops. induction ops as [|o r IH]; intros fs1 fs2 Hap Hwf HR; [exact HR|].
  apply andb_prop in Hwf. destruct Hwf as [Ho Hr].
  rewrite drun_cons. cbn [run_steps fst]. apply IH; [exact Hap | exact Hr |].
  destruct o as [k c | items]; cbn [steps_of_op dstep fst].
  - apply rel_meta, rel_aupdate, HR.
  - unfold op_wf in Ho. apply andb_prop in Ho. exact (rel_items s items fs1 fs2 Hap (proj1 Ho) HR).
Qed.

Theorem steps_refine_histories : forall s ops,
  dirs_apart s = true -> ops_wf ops = true ->
  forall u, (forall k, u <> meta_uri s k) ->
    alookup u (run_steps s [] ops) = alookup u (fst (drun s [] ops)).
Proof. intros s ops Hap Hwf. apply (rel_run s ops [] [] Hap Hwf). intros u _. reflexivity. Qed.

Lemma completed_blob_from : forall s ops fs k c, In (DBlob k c) ops -> has_blob s (run_steps s fs ops) k = true.
Proof.
  intros s ops. induction ops as [|o r IH]; intros fs k c Hin; [destruct Hin|].
  destruct Hin as [->|Hin]; [|exact (IH _ k c Hin)].
  cbn [run_steps steps_of_op apply_steps fold_left apply_step].
  apply has_blob_present, run_steps_keeps. exists meta_content. apply alookup_aupdate_same.
Qed.

Theorem completed_blob_is_present : forall s ops,
  dirs_apart s = true -> ops_wf ops = true ->
  forall k c, In (DBlob k c) ops -> has_blob s (run_steps s [] ops) k = true.
Proof. intros s ops _ _ k c Hin. exact (completed_blob_from s ops [] k c Hin). Qed.

Theorem marker_first_refuted :
  let s := DStore (bs "dbfs:/s/internal") (bs "dbfs:/s/data") CFull in
  let k := bs "abc0" in
  let fs := apply_steps s [] (firstn 1 [WMeta k; WBlob k (bs "v")]) in
  has_blob s fs k = true /\ alookup (blob_uri s k) fs = None.
Proof. cbv zeta. vm_compute. split; reflexivity. Qed.
