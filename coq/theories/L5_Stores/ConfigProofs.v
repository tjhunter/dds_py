(* Which store a LocalFileStore configuration denotes (Config.v:make_store, C16).  The two directory strings count only
   through os.path.abspath, which drops a trailing "/" and, for an absolute name, ignores the working directory; so
   configurations with the same absolute directories make the same store.  Two views on one internal directory share
   every blob, and their links are apart when neither data directory is a prefix of the other. *)
From Coq Require Import List Ascii String Bool Arith.
From DDS Require Import Base.Bytes Extracted.ConstConfig L5_Stores.AssocFacts L5_Stores.PathMap L5_Stores.Config.
Import ListNotations.

Lemma dirs_made_absolute : c_dirs_made_absolute = true.
Proof. reflexivity. Qed.

(* a trailing "/" adds one empty component, which [segments] drops *)
Lemma split_slash_app_slash : forall l cur, split_slash (l ++ ["/"%char]) cur = split_slash l cur ++ [[]].
Proof.
  induction l as [|c r IH]; intros cur; cbn [app split_slash].
  - reflexivity.
  - destruct (Ascii.eqb c "/") eqn:E; rewrite IH; reflexivity.
Qed.

Theorem comps_trailing_slash : forall d, comps (d ++ ["/"%char]) = comps d.
Proof.
  intros d. unfold comps, segments. rewrite split_slash_app_slash, filter_app.
  cbn [filter nonempty List.length Nat.eqb negb]. apply app_nil_r.
Qed.

Lemma is_abs_app : forall d x, d <> [] -> is_abs (d ++ x) = is_abs d.
Proof. intros d x Hd. destruct d; [congruence | reflexivity]. Qed.

Theorem abspath_trailing_slash : forall cwd d, d <> [] -> abspath cwd (d ++ ["/"%char]) = abspath cwd d.
Proof. intros cwd d Hd. unfold abspath. rewrite comps_trailing_slash, is_abs_app by exact Hd. reflexivity. Qed.

Theorem abspath_absolute : forall cwd1 cwd2 d, is_abs d = true -> abspath cwd1 d = abspath cwd2 d.
Proof. intros cwd1 cwd2 d Ha. unfold abspath. rewrite Ha. reflexivity. Qed.
Theorem abspath_relative : forall cwd d, is_abs d = false -> abspath cwd d = resolve (cwd ++ comps d).
Proof. intros cwd d Ha. unfold abspath. rewrite Ha. reflexivity. Qed.

Theorem same_dirs_same_store : forall cwd1 cwd2 i1 d1 i2 d2,
  abspath cwd1 i1 = abspath cwd2 i2 -> abspath cwd1 d1 = abspath cwd2 d2 -> make_store cwd1 i1 d1 = make_store cwd2 i2 d2.
Proof. intros cwd1 cwd2 i1 d1 i2 d2 Hi Hd. unfold make_store. rewrite Hi, Hd. reflexivity. Qed.

Theorem views_share_blobs : forall root d1 d2 k, blob_name (LStore root d1) k = blob_name (LStore root d2) k.
Proof. reflexivity. Qed.

Lemma is_prefix_of_app : forall a b c, a ++ b = c -> is_prefix_of a c = true.
Proof.
  induction a as [|x r IH]; intros b c Hc; [reflexivity|]. destruct c as [|y t]; [discriminate|].
  cbn in Hc. inversion Hc; subst. cbn [is_prefix_of]. rewrite bytes_eqb_refl. cbn. eapply IH. reflexivity.
Qed.

Theorem views_independent : forall root d1 d2 segs1 segs2,
  is_prefix_of d1 d2 = false -> is_prefix_of d2 d1 = false ->
  link_name (LStore root d1) segs1 <> link_name (LStore root d2) segs2.
Proof.
  intros root d1 d2 s1 s2 H1 H2 Heq. unfold link_name in Heq. cbn [ls_data] in Heq.
  (* one of the two directories is the other followed by some components *)
  apply app_eq_app in Heq. destruct Heq as [l [[E _]|[E _]]]; symmetry in E; apply is_prefix_of_app in E; congruence.
Qed.

Example abspath_examples :
  abspath [bs "home"; bs "u"] (bs "store/int/") = [bs "home"; bs "u"; bs "store"; bs "int"] /\
  abspath [bs "home"; bs "u"] (bs "./store//int") = [bs "home"; bs "u"; bs "store"; bs "int"] /\
  abspath [bs "home"; bs "u"] (bs "/tmp/x/../int") = [bs "tmp"; bs "int"] /\
  abspath [bs "other"] (bs "/tmp/x/../int") = [bs "tmp"; bs "int"].
Proof. vm_compute. repeat split; reflexivity. Qed.
