(* Which codec reads a blob back (Codec.v:select_by_ref, C17).  One registration leaves the binding of a reference alone
   when it is a file codec (add_file_codec binds only what is unbound) or is made under another reference;
   [read_with_writer_codec] is the induction over the registrations in between.  That the writer's reference is bound
   in the first place is a fact about the default registry, checked by evaluation. *)
From Coq Require Import List Ascii String Bool Arith.
From DDS Require Import Base.Bytes Extracted.ConstCodec L4_Eval.Store L5_Stores.AssocFacts L5_Stores.Codec.
Import ListNotations.

(* [rget] / [rset] of Codec.v are [alookup] / [aupdate] of the store specification under other names *)
Lemma rget_rset_same : forall (A : Type) k (v : A) l, rget k (rset k v l) = Some v.
Proof. exact alookup_aupdate_same. Qed.
Lemma rget_rset_other : forall (A : Type) k k2 (v : A) l, k2 <> k -> rget k2 (rset k v l) = rget k2 l.
Proof. exact alookup_aupdate_other. Qed.

Theorem file_codec_never_rebinds : forall g ref types r c,
  select_by_ref g r = Some c -> select_by_ref (register g (RFile ref types)) r = Some c.
Proof.
  intros g ref types r c Hc. unfold select_by_ref, register in *. cbn [protocols]. unfold rset_if_absent, cid in *.
  destruct (rget ref _) as [x|] eqn:E; [exact Hc|].
  destruct (bytes_eqb_spec r ref) as [->|Hne]; [congruence|].
  rewrite rget_rset_other by exact Hne. exact Hc.
Qed.

Theorem other_reference_preserved : forall g reg0 r,
  reg_ref reg0 <> r -> select_by_ref (register g reg0) r = select_by_ref g r.
Proof.
  intros g [ref types|ref types] r Hne; unfold select_by_ref, register; cbn [protocols reg_ref] in *.
  - unfold rset_if_absent. destruct (rget ref _); [reflexivity|]. apply rget_rset_other. congruence.
  - apply rget_rset_other. congruence.
Qed.

Definition rebinding (r : bytes) (x : reg) : bool := match x with RCodec ref _ => bytes_eqb ref r | RFile _ _ => false end.

(* C17: a blob is read back with the codec object that wrote it, whatever is registered or re-prioritised in between
   (in this or another process), as long as no CODEC is registered under the persisted reference itself *)
Theorem read_with_writer_codec : forall regs g r c,
  select_by_ref g r = Some c -> forallb (fun x => negb (rebinding r x)) regs = true ->
  select_by_ref (fold_left register regs g) r = Some c.
Proof.
  induction regs as [|x t IH]; intros g r c Hc Hn; cbn [fold_left]; [exact Hc|].
  cbn [forallb] in Hn. apply andb_prop in Hn. destruct Hn as [Hx Ht].
  apply IH; [|exact Ht].
  destruct x as [ref types|ref types].
  - apply file_codec_never_rebinds. exact Hc.
  - apply negb_true_iff, bytes_eqb_neq in Hx. rewrite other_reference_preserved; assumption.
Qed.

(* the writer's reference is bound right after the selection: in the default registry every codec that can be selected
   by type is registered under its own reference *)
Theorem default_references_bound :
  forallb (fun rt => match select_by_ref default_registry (bs (fst rt)) with Some (r, _) => bytes_eqb r (bs (fst rt)) | None => false end)
          c_default_file_codecs = true.
Proof. vm_compute. reflexivity. Qed.

(* the hypothesis is necessary: a codec registered under the persisted reference takes over old blobs *)
Example rebinding_takes_over :
  select_by_ref (register default_registry (RCodec (bs "local.string") [bs "str"])) (bs "local.string")
  <> select_by_ref default_registry (bs "local.string").
Proof. vm_compute. discriminate. Qed.

Example default_selection :
  run_select [] (bs "str") = "local.string"%string /\ run_select [] (bs "bytes") = "local.bytes"%string /\
  run_select [] (bs "bytearray") = "local.bytes"%string /\ run_select [] (bs "NoneType") = "local.pickle"%string /\
  run_select [] (bs "dict") = "local.pickle"%string /\ run_select [] (bs "pandas.core.frame.DataFrame") = "local.pandas"%string.
Proof. vm_compute. repeat split; reflexivity. Qed.
