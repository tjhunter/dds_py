(* The location a store gives to a dds path (PathMap.v:loc_of, C08).  A path that gets one has it at
   data_root ++ segments p, with at least one segment and none of them "." or ".." ([loc_of_some]).  From that form:
   two paths with one location have the same segments, and the file system, which resolves a name without dots to
   itself, finds the location strictly below the data directory. *)
From Coq Require Import List Ascii String Bool Arith.
From DDS Require Import Base.Bytes Extracted.ConstStore L5_Stores.AssocFacts L5_Stores.PathMap.
Import ListNotations.

Lemma forbidden_value : forbidden = [bs "."; bs ".."].
Proof. vm_compute. reflexivity. Qed.

Lemma bytes_eqb_true : forall a b, bytes_eqb a b = true -> a = b.
Proof. intros a b. apply bytes_eqb_eq. Qed.

Lemma path_segments_some : forall p s, path_segments p = Some s ->
  s = segments p /\ s <> [] /\ no_dots s = true.
Proof.
  intros p s Hs. unfold path_segments, no_dots in *.
  destruct (segments p) as [|x r]; [discriminate|]. cbn [List.length Nat.eqb orb] in Hs.
  destruct (existsb is_forbidden (x :: r)) eqn:E; [discriminate|].
  injection Hs as <-. rewrite E. split; [reflexivity|]. split; [discriminate | reflexivity].
Qed.

Lemma loc_of_some : forall d p l, loc_of d p = Some l ->
  l = d ++ segments p /\ segments p <> [] /\ no_dots (segments p) = true.
Proof.
  intros d p l Hl. unfold loc_of in Hl. destruct (path_segments p) as [s|] eqn:E; [|discriminate].
  injection Hl as <-. apply path_segments_some in E. destruct E as [-> E]. auto.
Qed.

Theorem loc_injective : forall d p q l,
  loc_of d p = Some l -> loc_of d q = Some l -> segments p = segments q.
Proof.
  intros d p q l Hp Hq. apply loc_of_some in Hp, Hq. destruct Hp as [-> _], Hq as [Hq _].
  exact (app_inv_head _ _ _ Hq).
Qed.

Lemma resolve_from_no_dots : forall comps stack,
  no_dots comps = true -> resolve_from stack comps = rev stack ++ comps.
Proof.
  unfold no_dots. induction comps as [|c r IH]; intros stack Hn; cbn [resolve_from existsb] in *.
  - rewrite app_nil_r. reflexivity.
  - apply negb_true_iff, orb_false_elim in Hn. destruct Hn as [Hc Hr].
    unfold is_forbidden in Hc. rewrite forbidden_value in Hc. cbn [existsb] in Hc.
    rewrite orb_false_r in Hc. apply orb_false_elim in Hc. destruct Hc as [H1 H2].
    rewrite H1, H2, IH by (rewrite Hr; reflexivity). cbn [rev]. rewrite <- app_assoc. reflexivity.
Qed.

Lemma no_dots_app : forall a b, no_dots a = true -> no_dots b = true -> no_dots (a ++ b) = true.
Proof.
  intros a b Ha Hb. unfold no_dots in *. rewrite existsb_app, negb_orb, Ha, Hb. reflexivity.
Qed.

(* every name created for a path resolves strictly inside the data directory (which itself contains no dots) *)
Theorem loc_contained : forall d p l,
  no_dots d = true -> loc_of d p = Some l ->
  exists s, s <> [] /\ resolve l = resolve d ++ s /\ resolve d = d.
Proof.
  intros d p l Hd Hl. apply loc_of_some in Hl. destruct Hl as [-> [Hne Hs]].
  exists (segments p). split; [exact Hne|]. unfold resolve.
  rewrite !resolve_from_no_dots by auto using no_dots_app. split; reflexivity.
Qed.

Theorem dots_rejected : forall d p, existsb is_forbidden (segments p) = true -> loc_of d p = None.
Proof.
  intros d p Hf. unfold loc_of, path_segments. rewrite Hf, orb_true_r. reflexivity.
Qed.

Example loc_example :
  loc_of [bs "data"] (bs "/a b//c/.x/") = Some [bs "data"; bs "a b"; bs "c"; bs ".x"].
Proof. vm_compute. reflexivity. Qed.
Example loc_rejects_dotdot : loc_of [bs "data"] (bs "/a/../b") = None /\ loc_of [bs "data"] (bs "/") = None.
Proof. vm_compute. split; reflexivity. Qed.
