(* The boolean equality test of [bytes] reflects equality. *)
From Coq Require Import List Ascii Bool.
From DDS Require Import Base.Bytes.
Import ListNotations.

Lemma bytes_eqb_spec : forall a b, reflect (a = b) (bytes_eqb a b).
Proof. intros a b. unfold bytes_eqb. destruct (list_eq_dec ascii_dec a b); constructor; assumption. Qed.

Lemma bytes_eqb_eq : forall a b, bytes_eqb a b = true <-> a = b.
Proof. intros a b. destruct (bytes_eqb_spec a b); split; congruence. Qed.

Lemma bytes_eqb_neq : forall a b, bytes_eqb a b = false <-> a <> b.
Proof. intros a b. destruct (bytes_eqb_spec a b); split; congruence. Qed.

Lemma bytes_eqb_refl : forall a, bytes_eqb a a = true.
Proof. intros a. apply bytes_eqb_eq. reflexivity. Qed.

Lemma existsb_bytes_eqb : forall x l, existsb (bytes_eqb x) l = true <-> In x l.
Proof.
  intros x l. rewrite existsb_exists. split.
  - intros (y & Hy & E). apply bytes_eqb_eq in E. subst y. exact Hy.
  - intros Hx. exists x. split; [exact Hx|apply bytes_eqb_refl].
Qed.
