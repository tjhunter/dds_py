(* C13: the argument context computed by dds (ArgCtx.v) depends only on Python's binding of the call, not on how
   the call is spelled, on both routes (values passed directly / literals read in the source); and different
   bindings give different contexts, up to what value hashing identifies and up to the replacement of None by the
   marker string (a genuine confusion, exhibited at the end). *)
From Coq Require Import List Ascii String ZArith NArith Bool.
From DDS Require Import Base.Bytes Extracted.ConstHash L0_Hash.PyVal L0_Hash.DdsHash L0_Hash.Norm L0_Hash.HashSpec
  L0_Hash.HashProofs L1_Args.ArgCtx L1_Args.ArgSpec L1_Args.GenArgCtxProofs.
Import ListNotations.

Lemma constants_ok : arg_constants_ok = true.
Proof. vm_compute. reflexivity. Qed.

Lemma kw_lookup_kwlits : forall n kw, kw_lookup n (kwlits kw) = option_map ALit (kw_lookup n kw).
Proof.
  intros n kw. induction kw as [|[k v] kw IHkw]; [reflexivity|].
  cbn [kwlits map kw_lookup fst snd]. fold (kwlits kw).
  destruct (bytes_eqb n k); [reflexivity|exact IHkw].
Qed.

Section P.
  Variable H : bytes -> bytes.
  Variable mx : option N.

  (* both routes compute the context of the binding, whatever the spelling (any starting index): each hashes the bound
     value with None replaced by the marker, [rt_value] and [subst_default] being [subst_none] for the regenerated style *)
  Theorem by_binding : forall ps idx pos kw b,
    all_pok ps = true -> bind ps idx pos kw = Some b ->
    arg_ctx_rt H mx ps idx pos kw = named_of_binding H mx b /\
    arg_ctx_ast H mx ps idx (lits pos) (kwlits kw) = named_of_binding H mx b.
  Proof.
    induction ps as [|p r IHr]; intros idx pos kw b Hall Hb; cbn [bind] in Hb.
    - injection Hb as <-. split; reflexivity.
    - apply andb_prop in Hall as [Hk Hr]. cbn [arg_ctx_rt arg_ctx_ast]. destruct (p_kind p); try discriminate Hk.
      unfold lits. rewrite nth_error_map, kw_lookup_kwlits.
      (* the value Python binds to p: the positional argument, else the keyword argument, else the default *)
      destruct (nth_error pos idx) as [v|];
        [|destruct (kw_lookup (p_name p) kw) as [v|]; [|destruct (p_default p) as [v|]; [|discriminate Hb]]].
      all: destruct (bind r (S idx) pos kw) as [l|] eqn:Hl; [|discriminate Hb]; injection Hb as <-.
      all: destruct (IHr (S idx) pos kw l Hr Hl) as [E1 E2]; fold (lits pos); rewrite E1, E2.
      all: cbn [option_map process_arg named_of_binding]; rewrite ?rt_value_is_none, ?subst_default_is_none.
      all: split; reflexivity.
  Qed.

  (* C13, first half: all spellings of one binding share one result, across the two routes *)
  Corollary spelling_invariant : forall ps pos1 kw1 pos2 kw2 b,
    all_pok ps = true -> bind ps 0 pos1 kw1 = Some b -> bind ps 0 pos2 kw2 = Some b ->
    arg_ctx_rt H mx ps 0 pos1 kw1 = arg_ctx_rt H mx ps 0 pos2 kw2 /\
    arg_ctx_ast H mx ps 0 (lits pos1) (kwlits kw1) = arg_ctx_rt H mx ps 0 pos2 kw2.
  Proof.
    intros ps pos1 kw1 pos2 kw2 b Hall Hb1 Hb2.
    destruct (by_binding ps 0 pos1 kw1 b Hall Hb1) as [-> ->]. rewrite (proj1 (by_binding ps 0 pos2 kw2 b Hall Hb2)).
    split; reflexivity.
  Qed.

  Lemma hash_opt_ok_iff : forall v h, hash_opt H mx v = inr (Some h) <-> dds_hash H mx v = HOk h.
  Proof. intros v h. unfold hash_opt. destruct (dds_hash H mx v); split; congruence. Qed.

  Lemma named_cons_inr : forall n v r l, named_of_binding H mx ((n, v) :: r) = inr l ->
    exists h l', dds_hash H mx (subst_none v) = HOk h /\ named_of_binding H mx r = inr l' /\ l = (n, Some h) :: l'.
  Proof.
    intros n v r l Hn. cbn [named_of_binding] in Hn. unfold hash_opt in Hn.
    destruct (dds_hash H mx (subst_none v)) as [h| | | | |]; try discriminate Hn.
    destruct (named_of_binding H mx r) as [e|l']; [discriminate Hn|].
    injection Hn as <-. exists h, l'. repeat split.
  Qed.

  Theorem binding_injective : (forall x, hex64 (H x)) -> forall b1 b2 l,
    map fst b1 = map fst b2 ->
    Forall (fun nv => clean (subst_none (snd nv)) = true) b1 ->
    Forall (fun nv => clean (subst_none (snd nv)) = true) b2 ->
    named_of_binding H mx b1 = inr l -> named_of_binding H mx b2 = inr l ->
    Forall2 (fun x y => fst x = fst y /\ norm (subst_none (snd x)) = norm (subst_none (snd y))) b1 b2 \/ H_collision H.
  Proof.
    intros Hhex. induction b1 as [|[n1 v1] r1 IH]; intros b2 l Hnames C1 C2 N1 N2.
    - destruct b2 as [|nv2 r2]; [|discriminate Hnames]. left. constructor.
    - destruct b2 as [|[n2 v2] r2]; [discriminate Hnames|]. injection Hnames as En Hnames.
      inversion C1 as [|x1 t1 Cv1 Cr1]; subst x1 t1. inversion C2 as [|x2 t2 Cv2 Cr2]; subst x2 t2.
      apply named_cons_inr in N1 as (h1 & l1 & Hd1 & Hr1 & ->).
      apply named_cons_inr in N2 as (h2 & l2 & Hd2 & Hr2 & [= _ <- <-]).
      destruct (hash_inj_clean H Hhex mx _ _ h1 Cv1 Cv2 Hd1 Hd2) as [Enorm|Hcol]; [|right; exact Hcol].
      destruct (IH r2 l1 Hnames Cr1 Cr2 Hr1 Hr2) as [Hrest|Hcol]; [|right; exact Hcol].
      left. constructor; [split; assumption|exact Hrest].
  Qed.

End P.

(* the marker string is a genuine confusion (known finding): f(a, b=None) called as f(1) and as f(1, "__none__") *)
Theorem marker_collision : exists ps pos1 pos2 b1 b2,
  all_pok ps = true /\ bind ps 0 pos1 [] = Some b1 /\ bind ps 0 pos2 [] = Some b2 /\ b1 <> b2 /\
  forall H mx, arg_ctx_rt H mx ps 0 pos1 [] = arg_ctx_rt H mx ps 0 pos2 [].
Proof.
  pose (ps := [Param (bs "a") POK None; Param (bs "b") POK (Some VNone)]).
  pose (b1 := [(bs "a", VInt 1); (bs "b", VNone)]). pose (b2 := [(bs "a", VInt 1); (bs "b", VStr (bs "__none__"))]).
  exists ps, [VInt 1], [VInt 1; VStr (bs "__none__")], b1, b2.
  split; [reflexivity|]. split; [reflexivity|]. split; [reflexivity|]. split; [discriminate|].
  intros H mx. rewrite (proj1 (by_binding H mx ps 0 [VInt 1] [] b1 eq_refl eq_refl)),
    (proj1 (by_binding H mx ps 0 [VInt 1; VStr (bs "__none__")] [] b2 eq_refl eq_refl)).
  (* [subst_none VNone] is the marker string *)
  reflexivity.
Qed.

Example binding_example :
  let ps := [Param (bs "a") POK None; Param (bs "b") POK (Some (VInt 0)); Param (bs "c") POK (Some VNone)] in
  bind ps 0 [VInt 5] [] = bind ps 0 [] [(bs "c", VNone); (bs "a", VInt 5); (bs "b", VInt 0)] /\
  bind ps 0 [VInt 5] [] = Some [(bs "a", VInt 5); (bs "b", VInt 0); (bs "c", VNone)].
Proof. vm_compute. split; reflexivity. Qed.

Print Assumptions spelling_invariant.
Print Assumptions binding_injective.
