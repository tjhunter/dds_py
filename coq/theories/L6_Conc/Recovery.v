(* Recovery after a crash (C06, continued).  CrashProofs.v shows what every reader may rely on at every instant of an
   execution with crashes; SeqRefine.v shows that one process running alone behaves like a dictionary on a file system
   related to an abstract state by Rp (leftovers of dead processes allowed).  Here the two are connected: the file system
   left behind by ANY execution with crashes (of an initialised store: writers_ok) is Rp-related, for every fresh pid, to
   the dictionary state that it visibly shows; hence a new process that runs on it gets the dictionary's answers.

   Hypotheses on the initial state beyond those of the crash theorems:
     - DataTree (s_fs s0): below the data directory there are only directories and links, sitting in directories;
     - finite_fs (s_fs s0): finitely many names exist (the abstract state lists the stored keys).
   The results are restated in Properties/C06b.v. *)
From Coq Require Import List Ascii String Bool Arith Lia.
From DDS Require Import Base.Bytes L6_Conc.FsOps L6_Conc.LocalProgs L6_Conc.ConcSpec L6_Conc.CrashProofs L6_Conc.SeqRefine.
Import ListNotations.

Section Recovery.
  Variable root data : path.
  Variable enc menc : bytes -> bytes.

  Notation blob := (blob root).
  Notation meta := (meta root).
  Notation pstep := (pstep root data enc menc).
  Notation good_op := (good_op data).
  Notation good_loc := (good_loc data).
  Notation BlobInv := (BlobInv root enc menc).
  Notation LinkInv := (LinkInv root).
  Notation LinkLive := (LinkLive root enc menc).
  Notation complete := (complete root enc menc).
  Notation init_ok := (init_ok root data enc menc).
  Notation reachable := (reachable root data enc menc).
  Notation reachable_nospawn := (reachable_nospawn root data enc menc).
  Notation G := (G root data enc menc).
  Notation Rp := (Rp root data enc menc).
  Notation finishes := (finishes root data enc menc).

  Definition DataTree (fs : fsys) : Prop :=
    (forall x, good_loc x -> fs x = None \/ fs x = Some NDir \/ exists t, fs x = Some (NLink t)) /\
    (forall x d, good_loc x -> good_loc d -> sprefix d x = true -> fs x <> None -> fs d = Some NDir).

  Lemma tree_parent : forall fs x d, DataTree fs -> good_loc x -> good_loc d -> sprefix d x = true ->
    fs (parent x) = Some NDir -> fs d = Some NDir.
  Proof.
    intros fs x d [_ HT] Hx Hd Hs Hp. destruct (sprefix_parent d x Hs) as [->|Hs']; [exact Hp|].
    apply (HT (parent x) d); [|exact Hd|exact Hs'|congruence].
    exact (good_loc_parent data d x Hd (good_loc_visible data x Hx) Hs').
  Qed.

  Lemma DataTree_step : forall s0 p p' fs fs', static root data -> BlobInv fs -> G p p' fs fs' ->
    w_pc data s0 fs (p_pc p) -> DataTree fs -> DataTree fs'.
  Proof.
    intros s0 p p' fs fs' Hst HB HG Hw HD. pose proof HD as [H3 HT]. split.
    - intros x Hx. destruct (G_loc root data enc menc Hst p p' fs fs' HG x Hx) as [E|[(_ & E & _)|(_ & k & items & _ & E)]]; eauto.
      rewrite E. exact (H3 x Hx).
    - intros x d Hx Hd Hs Hne. apply (G_dir_mono root data enc menc p p' fs fs' HG d HB (good_loc_visible data d Hd)).
      destruct (G_loc root data enc menc Hst p p' fs fs' HG x Hx) as [E|[(Hn & _ & r & next & Hpc)|(_ & k & items & Hpc & _)]];
        rewrite ?Hpc in Hw; simpl in Hw.
      + rewrite E in Hne. exact (HT x d Hx Hd Hs Hne).
      + (* x is made by makedirs: its parent is the directory made before *)
        destruct next; try contradiction; [apply Forall_inv in Hw; congruence|].
        destruct Hw as ((prev & W1 & _ & [W3 _] & _) & _). apply (tree_parent fs x d HD Hx Hd Hs). rewrite W3. exact W1.
      + apply (tree_parent fs x d HD Hx Hd Hs). apply Hw.
  Qed.

  Lemma DataTree_reachable : forall s0, init_ok s0 -> writers_ok root data s0 -> DataTree (s_fs s0) ->
    forall s, reachable_nospawn s0 s -> DataTree (s_fs s).
  Proof.
    intros s0 H0 HW0 HD0. pose proof (init_static root data enc menc s0 H0) as Hst. apply nospawn_ind; [exact HD0| |auto].
    intros s i p n Hr IH Hn. destruct (W_reachable root data enc menc Hst s0 H0 HW0 s Hr) as (HI & _ & _ & HWp).
    destruct (Inv_pstep root data enc menc Hst s i p n HI Hn) as (HG & _).
    rewrite Forall_forall in HWp. destruct (HWp p (nth_error_In _ _ Hn)) as (Hw & _).
    exact (DataTree_step s0 _ _ _ _ Hst (proj1 HI) HG Hw IH).
  Qed.

  Lemma Rp_DataTree : forall pid D fs st, Rp pid D fs st -> DataTree fs.
  Proof.
    intros pid D fs st HR. pose proof HR as (_ & _ & _ & _ & _ & _ & _ & _ & _ & _ & Hz & HT). split; [|exact HT].
    intros x Hx. specialize (Hz x Hx). unfold zoneD in Hz. destruct (lookup x (a_paths st)); [right; right; eauto|].
    destruct (is_anc x (a_paths st)); [right; left; exact Hz|]. destruct Hz as [Hz|[Hz _]]; auto.
  Qed.

  Definition finite_fs (fs : fsys) : Prop := exists l : list path, forall x, fs x <> None -> In x l.

  Lemma finite_upd : forall fs a v, finite_fs fs -> finite_fs (upd fs a v).
  Proof.
    intros fs a v [l Hl]. exists (a :: l). intros x Hx. destruct (path_eq_dec x a) as [->|E]; [left; reflexivity|right].
    apply Hl. rewrite <- (upd_other fs a v x E). exact Hx.
  Qed.

  Lemma do_mkdir_fin : forall fs d fs', do_mkdir fs d = Some fs' -> finite_fs fs -> finite_fs fs'.
  Proof. intros fs d fs' H. apply do_mkdir_some in H as (_ & _ & ->). apply finite_upd. Qed.
  Lemma do_create_fin : forall fs x fs', do_create fs x = Some fs' -> finite_fs fs -> finite_fs fs'.
  Proof. intros fs x fs' H. apply do_create_some in H as (_ & ->). apply finite_upd. Qed.
  Lemma do_append_fin : forall fs x c fs', do_append fs x c = Some fs' -> finite_fs fs -> finite_fs fs'.
  Proof. intros fs x c fs' H. apply do_append_some in H as (? & _ & ->). apply finite_upd. Qed.
  Lemma do_symlink_fin : forall fs t x fs', do_symlink fs t x = Some fs' -> finite_fs fs -> finite_fs fs'.
  Proof. intros fs t x fs' H. apply do_symlink_some in H as (_ & _ & ->). apply finite_upd. Qed.
  Lemma do_replace_fin : forall fs a b fs', do_replace fs a b = Some fs' -> finite_fs fs -> finite_fs fs'.
  Proof. intros fs a b fs' H Hf. apply do_replace_some in H as (? & _ & _ & _ & ->). apply finite_upd, finite_upd, Hf. Qed.

  Lemma pstep_finite : forall fs p n, finite_fs fs -> finite_fs (fst (pstep fs p n)).
  Proof.
    intros fs [pid cnt c todo outs] n Hf. unfold LocalProgs.pstep, or_fail. cbn [p_pc].
    destruct c; split_reads; cbn [fst]; eauto using do_mkdir_fin, do_create_fin, do_append_fin, do_symlink_fin, do_replace_fin.
  Qed.

  Lemma finite_reachable : forall s0 s, reachable s0 s -> finite_fs (s_fs s0) -> finite_fs (s_fs s).
  Proof.
    intros s0 s Hr H0. induction Hr as [|s s' _ IH Hstep]; [exact H0|]. destruct Hstep; cbn [s_fs]; auto using pstep_finite.
  Qed.

  Definition good_locb (x : path) : bool := visible x && sprefix data x.

  Lemma good_locb_spec : forall x, good_locb x = true <-> good_loc x.
  Proof. intro x. unfold good_locb, CrashProofs.good_loc. rewrite andb_true_iff, sprefix_spec. reflexivity. Qed.

  (* the dictionary state that a file system shows, computed from a list l of all its names.  A stored key k has its blob
     file, whose last name is k: the stored keys are found in [map last_name l].  A link points to a blob file: the key
     that a location is bound to is the last name of the link's target. *)
  Definition keys_of (l : list path) (fs : fsys) : list bytes :=
    filter (fun k => fs_lexists fs (meta k)) (map last_name l).
  Definition paths_of (l : list path) (fs : fsys) : list (path * bytes) :=
    flat_map (fun x => match fs x with
                       | Some (NLink t) => if good_locb x then [(x, last_name t)] else []
                       | _ => []
                       end) l.
  Definition shown_state (l : list path) (fs : fsys) : astate := AState (keys_of l fs) (paths_of l fs).

  Lemma last_name_blob : forall k, last_name (blob k) = k.
  Proof. intro k. unfold last_name, LocalProgs.blob. rewrite last_last. reflexivity. Qed.

  (* as the D of Rp: any directory of fs may be a leftover *)
  Definition dirs_of (fs : fsys) : path -> Prop := fun x => fs x = Some NDir.

  Section Shown.
    Variables (l : list path) (fs : fsys).
    Hypothesis Hl : forall x, fs x <> None -> In x l.

    Lemma keys_of_spec : BlobInv fs -> forall k, good_key k = true -> (fs (meta k) <> None <-> In k (keys_of l fs)).
    Proof.
      intros HB k Hk. unfold keys_of, fs_lexists. rewrite filter_In. destruct (fs (meta k)) as [n|] eqn:E.
      - split; [intros _|discriminate]. split; [|reflexivity]. rewrite <- (last_name_blob k). apply in_map, Hl.
        destruct (proj2 (HB k Hk) n E) as [_ Eb]. congruence.
      - split; [congruence|intros [_ H]; discriminate].
    Qed.

    Lemma paths_of_In : forall x k, In (x, k) (paths_of l fs) <->
      good_loc x /\ exists t, fs x = Some (NLink t) /\ k = last_name t.
    Proof.
      intros x k. unfold paths_of. rewrite in_flat_map. split.
      - intros (y & _ & H). destruct (fs y) as [[c|t|]|] eqn:E; try contradiction.
        destruct (good_locb y) eqn:Eg; [|contradiction]. destruct H as [[= -> <-]|[]]. apply good_locb_spec in Eg. eauto.
      - intros (Hg & t & Ht & ->). exists x. split; [apply Hl; congruence|]. rewrite Ht, (proj2 (good_locb_spec x) Hg). left. reflexivity.
    Qed.

    Lemma shown_state_Rp : forall pid, static root data ->
      (forall d, In d (init_dirs root data) -> fs d = Some NDir) -> fs data = Some NDir ->
      BlobInv fs -> LinkInv fs -> LinkLive fs ->
      (forall X b n, fs (X ++ [CTmp b pid n]) = None) ->
      DataTree fs -> Rp pid (dirs_of fs) fs (shown_state l fs).
    Proof.
      intros pid (_ & Hvr & Hvd) Hd Hdata HB HL HLL Hnt [H3 HT].
      assert (Hlk : forall x k, In (x, k) (paths_of l fs) -> good_loc x /\ good_key k = true /\
                                fs x = Some (NLink (blob k)) /\ fs (meta k) <> None).
      { intros x k H. apply paths_of_In in H as (Hg & t & Ht & ->). split; [exact Hg|].
        destruct (HLL x t (good_loc_visible data x Hg) Ht) as (k0 & Hk0 & -> & Hc). destruct Hc as [Hc _].
        rewrite last_name_blob. split; [exact Hk0|]. split; [exact Ht|]. congruence. }
      assert (Hdom : forall x, In x (map fst (paths_of l fs)) -> good_loc x /\ exists t, fs x = Some (NLink t)).
      { intros x Hx. apply dom_lookup in Hx as [k Hk]. destruct (Hlk x k (lookup_In _ _ _ Hk)) as (Hg & _ & Hf & _). eauto. }
      repeat (split; [assumption|]). cbn [shown_state a_keys a_paths]. split; [|split; [|split; [|split]]].
      - exact (keys_of_spec HB).
      - intros x k Hin. destruct (Hlk x k Hin) as (Hg & Hgk & _ & Hm).
        split; [exact Hgk|]. split; [apply keys_of_spec; assumption|exact Hg].
      - intros x x' Hx Hx' Hp. destruct (Hdom x Hx) as (Hg & t & Hf). destruct (Hdom x' Hx') as (Hg' & t' & Hf').
        destruct (path_eq_dec x x') as [E|E]; [exact E|].
        assert (Hs : sprefix x x' = true) by (unfold sprefix; rewrite Hp, (path_eqb_neq _ _ E); reflexivity).
        assert (Hdx : fs x = Some NDir) by (apply (HT x' x Hg' Hg Hs); congruence). congruence.
      - intros x Hg. unfold zoneD. destruct (lookup x (paths_of l fs)) as [k|] eqn:E; [apply (Hlk x k (lookup_In _ _ _ E))|].
        destruct (is_anc x (paths_of l fs)) eqn:Ea.
        + apply is_anc_spec in Ea as (x' & Hx' & Hs). destruct (Hdom x' Hx') as (Hg' & t' & Hf').
          apply (HT x' x Hg' Hg Hs). congruence.
        + destruct (H3 x Hg) as [H|[H|[t H]]]; [auto|right; split; exact H|].
          apply lookup_None in E. destruct E. apply (in_map fst _ (x, last_name t)), paths_of_In. eauto.
      - exact HT.
    Qed.
  End Shown.

  (* what "the dictionary state st is exactly what the file system shows" means *)
  Definition shows (fs : fsys) (st : astate) : Prop :=
    (forall k, good_key k = true -> (In k (a_keys st) <-> fs (meta k) <> None)) /\
    (forall loc k, good_loc loc -> (lookup loc (a_paths st) = Some k <-> fs loc = Some (NLink (blob k)))).

  Lemma Rp_shows : forall pid D fs st, Rp pid D fs st -> shows fs st.
  Proof.
    intros pid D fs st HR. split.
    - intros k Hk. symmetry. apply HR. exact Hk.
    - intros loc k Hl. symmetry. exact (Rp_link_iff root data enc menc pid D fs st HR loc k Hl).
  Qed.

  Section Recovered.
    Variables s0 s : sys.
    Hypothesis H0 : init_ok s0.
    Hypothesis HW0 : writers_ok root data s0.
    Hypothesis HL0 : LinkLive (s_fs s0).
    Hypothesis Hd0 : disciplined root enc menc s0.
    Hypothesis HD0 : DataTree (s_fs s0).
    Hypothesis HF0 : finite_fs (s_fs s0).
    Hypothesis Hrn : reachable_nospawn s0 s.

    Theorem recovery_refines :
      forall pid', (forall p, In p (s_procs s) -> p_pid p <> pid') ->
      exists st, Rp pid' (dirs_of (s_fs s)) (s_fs s) st /\ shows (s_fs s) st.
    Proof.
      intros pid' Hfresh. pose proof (init_static root data enc menc s0 H0) as Hst.
      destruct (W_reachable root data enc menc Hst s0 H0 HW0 s Hrn) as ((HB & HL & _) & HT & (F1 & F2 & _) & _).
      destruct (finite_reachable s0 s (proj1 Hrn) HF0) as [l Hl].
      assert (HR : Rp pid' (dirs_of (s_fs s)) (s_fs s) (shown_state l (s_fs s))).
      { apply shown_state_Rp; try assumption.
        - exact (links_live root data enc menc s0 s H0 HL0 Hd0 Hrn).
        - intros X b n. destruct (s_fs s (X ++ [CTmp b pid' n])) eqn:E; [|reflexivity].
          destruct (proj1 (Exists_exists _ _) (HT X b pid' n ltac:(congruence))) as (q & Hq & Hqp & _). destruct (Hfresh q Hq Hqp).
        - exact (DataTree_reachable s0 H0 HW0 HD0 s Hrn). }
      exists (shown_state l (s_fs s)). split; [exact HR|]. exact (Rp_shows _ _ _ _ HR).
    Qed.

    (* A NEW process (a pid that no process of the interrupted execution had) that runs alone on the file system left behind
       gets exactly the dictionary's answers for the state the file system shows.  [op_avoid]: it does not commit a location
       that is a directory there (os.replace onto a directory fails - see SeqRefine.v). *)
    Theorem recovered_store_is_a_dictionary :
      forall pid', (forall p, In p (s_procs s) -> p_pid p <> pid') ->
      exists st, shows (s_fs s) st /\
        forall p ops, p_pid p = pid' -> p_pc p = PIdle -> p_outs p = [] -> p_todo p = ops ->
          Forall good_op ops -> locs_ok root data enc menc st ops -> stored_ok root enc menc st ops ->
          Forall (op_avoid (dirs_of (s_fs s))) ops ->
          finishes (s_fs s) p (fun fs' outs => outs = spec_run root enc menc st ops /\
                                               Rp pid' (dirs_of (s_fs s)) fs' (spec_state root enc menc st ops)).
    Proof.
      intros pid' Hfresh. destruct (recovery_refines pid' Hfresh) as (st & HR & Hsh).
      exists st. split; [exact Hsh|]. intros p ops <- Hpc Houts Htodo Hg Hlo Hso Hav.
      apply (finishes_mono _ _ _ _ _ _ _ _
               (seq_refines_dictionary_with_leftovers root data enc menc _ (s_fs s) st p ops (proj1 H0) HR Hpc Houts Htodo Hg Hlo Hso Hav)).
      tauto.
    Qed.

    (* In particular: has_blob(k) is true exactly for the keys whose metadata rename completed, and then fetch_blob(k)
       returns the complete value. *)
    Theorem recovered_has_fetch :
      forall p k, (forall q, In q (s_procs s) -> p_pid q <> p_pid p) ->
        p_pc p = PIdle -> p_outs p = [] -> p_todo p = [OpHas k; OpFetch k] -> good_key k = true ->
        finishes (s_fs s) p (fun _ outs =>
          (s_fs s (meta k) <> None /\ outs = [RBool true; RBlob k (menc k) (enc k)]) \/
          (s_fs s (meta k) = None /\ outs = [RBool false; RNone])).
    Proof.
      intros p k Hfresh Hpc Houts Htodo Hk.
      destruct (recovered_store_is_a_dictionary (p_pid p) Hfresh) as (st & [Hsk _] & H).
      eapply finishes_mono; [apply (H p _ eq_refl Hpc Houts Htodo); repeat constructor; assumption|].
      intros _ outs [-> _]. cbn [spec_run spec_op fst snd].
      specialize (Hsk k Hk). rewrite <- mem_In in Hsk.
      destruct (mem k (a_keys st)); [left|right]; (split; [|reflexivity]).
      - apply Hsk. reflexivity.
      - destruct (s_fs s (meta k)); [|reflexivity]. discriminate (proj2 Hsk ltac:(discriminate)).
    Qed.

    (* ... and a location whose link swap completed (to the old or to the new blob) resolves to a key whose blob and
       metadata are complete; any other location strictly below data is reported as not committed. *)
    Theorem recovered_fetch_path :
      forall p loc, (forall q, In q (s_procs s) -> p_pid q <> p_pid p) ->
        p_pc p = PIdle -> p_outs p = [] -> p_todo p = [OpFetchPath loc] -> good_loc loc ->
        finishes (s_fs s) p (fun _ outs =>
          (exists k, good_key k = true /\ s_fs s loc = Some (NLink (blob k)) /\ complete (s_fs s) k /\
                     outs = [RKey (blob k)]) \/
          ((forall t, s_fs s loc <> Some (NLink t)) /\ outs = [RErr])).
    Proof.
      intros p loc Hfresh Hpc Houts Htodo Hl.
      destruct (recovered_store_is_a_dictionary (p_pid p) Hfresh) as (st & [_ Hsl] & H).
      eapply finishes_mono; [apply (H p _ eq_refl Hpc Houts Htodo); repeat constructor; apply Hl|].
      intros _ outs [-> _]. cbn [spec_run spec_op fst snd].
      pose proof (links_live root data enc menc s0 s H0 HL0 Hd0 Hrn loc) as HLL. pose proof (good_loc_visible data loc Hl) as Hv.
      destruct (lookup loc (a_paths st)) as [k|] eqn:E.
      - left. exists k. apply (Hsl loc k Hl) in E. destruct (HLL _ Hv E) as (k0 & Hk0 & Eb & Hc). apply blob_inj in Eb as <-. auto.
      - right. split; [|reflexivity]. intros t Ht. destruct (HLL t Hv Ht) as (k0 & _ & -> & _).
        apply (Hsl loc k0 Hl) in Ht. congruence.
    Qed.
  End Recovered.
End Recovery.
(* executable schedules: a list of "process i takes a step with tear size n" / "process i crashes" *)
Inductive act := AStep (i n : nat) | ACrash (i : nat).

Section Sched.
  Variable root data : path.
  Variable enc menc : bytes -> bytes.

  Definition do_act (s : sys) (a : act) : sys :=
    match a with
    | AStep i n =>
      match nth_error (s_procs s) i with
      | Some p => Sys (fst (pstep root data enc menc (s_fs s) p n))
                      (replace_nth i (snd (pstep root data enc menc (s_fs s) p n)) (s_procs s))
      | None => s
      end
    | ACrash i =>
      match nth_error (s_procs s) i with
      | Some p => Sys (s_fs s) (replace_nth i (fail p) (s_procs s))
      | None => s
      end
    end.
  Definition run_acts (s : sys) (acts : list act) : sys := fold_left do_act acts s.

  Lemma do_act_step : forall s a, do_act s a = s \/ sys_step root data enc menc s (do_act s a).
  Proof.
    intros s [i n|i]; simpl; destruct (nth_error (s_procs s) i) as [p|] eqn:E; eauto using StepProc, StepCrash.
  Qed.

  Lemma do_act_length : forall s a, List.length (s_procs (do_act s a)) = List.length (s_procs s).
  Proof.
    intros s [i n|i]; simpl; destruct (nth_error (s_procs s) i) as [p|]; try reflexivity; simpl; apply replace_nth_length.
  Qed.

  Lemma run_acts_reachable : forall acts s0 s, reachable_nospawn root data enc menc s0 s ->
    reachable_nospawn root data enc menc s0 (run_acts s acts).
  Proof.
    induction acts as [|a acts IH]; intros s0 s H; [exact H|]. simpl. apply IH. destruct H as [Hr Hlen]. split.
    - destruct (do_act_step s a) as [E|Hst]; [rewrite E; exact Hr|]. eapply ReachStep; eassumption.
    - rewrite do_act_length. exact Hlen.
  Qed.
End Sched.

(* non-vacuity: in the example system of CrashProofs.v, process 1 initialises, stores the blob of ex_key, renames it into
   place, creates the temporary of the metadata file and is killed; process 2 is killed before it starts *)
Definition rx_sched : list act :=
  [AStep 0 0; AStep 0 0; AStep 0 0; AStep 0 0; AStep 0 0;      (* OpInit: start, three directories, done *)
   AStep 0 0; AStep 0 0; AStep 0 100; AStep 0 0; AStep 0 0; AStep 0 0;   (* OpStore: start, create, write, eof, close, rename *)
   AStep 0 0;                                                  (* the metadata temporary is created ... *)
   ACrash 0; ACrash 1].                                        (* ... and everybody dies *)
Definition rx_sys : sys := run_acts ex_root ex_data (fun k => k) (fun k => k) ex_sys rx_sched.

Lemma ex_fs_names : forall x, ex_fs x <> None -> In x [[]; ex_root; ex_data; blobs_dir ex_root].
Proof.
  intros x H. unfold ex_fs in H.
  destruct (path_eqb x [] || path_eqb x ex_root || path_eqb x ex_data || path_eqb x (blobs_dir ex_root)) eqn:E; [|congruence].
  repeat (apply orb_true_iff in E as [E|E]); apply path_eqb_eq in E; subst x; simpl; auto.
Qed.

Lemma ex_fs_finite : finite_fs ex_fs.
Proof. eexists. exact ex_fs_names. Qed.

Lemma ex_fs_tree : DataTree ex_data ex_fs.
Proof.
  assert (H : forall x, good_loc ex_data x -> ex_fs x = None).
  { intros x [_ (segs & Hne & E)]. destruct (ex_fs x) as [n|] eqn:Ex; [|reflexivity]. exfalso.
    assert (Hin : In x [[]; ex_root; ex_data; blobs_dir ex_root]) by (apply ex_fs_names; congruence).
    subst x. destruct segs as [|c segs]; [congruence|].
    simpl in Hin. destruct Hin as [Hin|[Hin|[Hin|[Hin|[]]]]]; discriminate. }
  split.
  - intros x Hx. left. apply H. exact Hx.
  - intros x d Hx _ _ Hne. rewrite (H x Hx) in Hne. congruence.
Qed.

Definition rx_ops : list opcall := [OpHas ex_key; OpStore ex_key; OpHas ex_key; OpFetch ex_key].

(* The state rx_sys is reachable; both processes are dead; the blob of ex_key is installed but its metadata is not, and a
   temporary of the dead process is still there (so the relation R of SeqRefine.v is false of this file system).  A new
   process 3 is told that ex_key is absent, stores it, and then finds it with its complete value. *)
Lemma recovery_example :
  reachable_nospawn ex_root ex_data (fun k => k) (fun k => k) ex_sys rx_sys /\
  (forall p, In p (s_procs rx_sys) -> p_pc p = PFailed) /\
  s_fs rx_sys (blob ex_root ex_key) = Some (NFile ex_key) /\
  s_fs rx_sys (meta ex_root ex_key) = None /\
  s_fs rx_sys (tmp_of (meta ex_root ex_key) 1 1) = Some (NFile []) /\
  finishes ex_root ex_data (fun k => k) (fun k => k) (s_fs rx_sys) (Proc 3 0 PIdle rx_ops [])
           (fun _ outs => outs = [RBool false; RUnit; RBool true; RBlob ex_key ex_key ex_key]).
Proof.
  assert (Hrn : reachable_nospawn ex_root ex_data (fun k => k) (fun k => k) ex_sys rx_sys).
  { apply run_acts_reachable. split; [apply ReachRefl|reflexivity]. }
  assert (Eps : s_procs rx_sys = [Proc 1 1 PFailed [] [RUnit]; Proc 2 0 PFailed [] []]) by (vm_compute; reflexivity).
  assert (Em : s_fs rx_sys (meta ex_root ex_key) = None) by (vm_compute; reflexivity).
  split; [exact Hrn|]. split; [rewrite Eps; intros p [<-|[<-|[]]]; reflexivity|].
  split; [vm_compute; reflexivity|]. split; [exact Em|]. split; [vm_compute; reflexivity|].
  destruct example_system_init as (H0 & HL0 & Hd0 & _). destruct example_writers_ok as (_ & HW0 & _).
  destruct (recovered_store_is_a_dictionary ex_root ex_data (fun k => k) (fun k => k) ex_sys rx_sys H0 HW0 HL0 Hd0 ex_fs_tree
              ex_fs_finite Hrn 3) as (st & [Hsk _] & H); [rewrite Eps; intros p [<-|[<-|[]]]; discriminate|].
  eapply finishes_mono; [apply (H _ rx_ops); repeat constructor|]. intros _ outs [-> _].
  unfold rx_ops. cbn [spec_run spec_op fst snd a_keys a_paths].
  assert (E1 : mem ex_key (a_keys st) = false).
  { destruct (mem ex_key (a_keys st)) eqn:E; [|reflexivity]. apply mem_In in E. apply (Hsk ex_key eq_refl) in E. congruence. }
  rewrite E1. reflexivity.
Qed.
