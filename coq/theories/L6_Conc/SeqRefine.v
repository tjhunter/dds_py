(* Functional statement for the local store (C08): ONE process running store operations one after the other (run_seq,
   whole writes) behaves like a dictionary: keys -> blobs, committed locations -> keys.
   An abstraction relation ties a file system to an abstract dictionary state.  It comes in two forms: [Rp pid D] allows
   leftovers of dead processes (temporaries of pids other than [pid] anywhere; directories D below data that no bound
   location accounts for) - this is what a file system looks like after a crash, see Recovery.v - and [R] = Rp without
   any leftover.  Everything is proved for Rp: [op_refines_p] shows that one operation run from an Rp-related state
   yields the result of the specification and an Rp-related state, [seq_refines_steps] is the induction over the list of
   operations, [seq_refines_dictionary_with_leftovers] says the same of run_seq.  The statements about R
   ([op_refines], [seq_refines_dictionary] and what follows it) are corollaries.

   Side conditions beyond well-formed requests:
     - locs_ok:   committed locations stay prefix-free, as Rp demands of the bound locations ([items_locs_ok]), and
                  fetch_paths is asked about a location strictly below data (what that allows: see [op_locs_ok]);
     - stored_ok: sync_paths only points locations at keys stored earlier (the discipline of dds evaluations); without
                  it the model and the dictionary differ, see the comment at [op_stored_ok];
     - op_avoid D (only with leftovers): sync_paths does not commit a location that is a leftover directory; without it
                  they differ again, see the comment at [op_avoid].
   Builds on CrashProofs.v (the guarantee G with BlobInv / LinkInv, what a successful system call did, the directories on
   the way to a location); used by Recovery.v and restated in Properties/C08b.v and C06b.v. *)
From Coq Require Import List Ascii String Bool Arith Lia.
From DDS Require Import Base.Bytes Base.BytesFacts L6_Conc.FsOps L6_Conc.LocalProgs L6_Conc.ConcSpec L6_Conc.CrashProofs.
Import ListNotations.

Record astate := AState { a_keys : list bytes; a_paths : list (path * bytes) }.

Definition mem (k : bytes) (keys : list bytes) : bool := existsb (bytes_eqb k) keys.
Fixpoint lookup (loc : path) (ps : list (path * bytes)) : option bytes :=
  match ps with
  | [] => None
  | (l, k) :: r => if path_eqb loc l then Some k else lookup loc r
  end.
(* update: the newest binding is put in front, lookup returns the first one: the last binding wins *)
Definition pupd (loc : path) (k : bytes) (ps : list (path * bytes)) : list (path * bytes) := (loc, k) :: ps.
Definition sync_paths (items : list (path * bytes)) (ps : list (path * bytes)) : list (path * bytes) :=
  fold_left (fun acc it => pupd (fst it) (snd it) acc) items ps.

Definition sprefix (d l : path) : bool := is_prefix d l && negb (path_eqb d l).
(* d is a strict prefix of a bound location *)
Definition is_anc (d : path) (ps : list (path * bytes)) : bool := existsb (fun it => sprefix d (fst it)) ps.

Lemma mem_In : forall k keys, mem k keys = true <-> In k keys.
Proof. exact existsb_bytes_eqb. Qed.

Lemma lookup_In : forall loc ps k, lookup loc ps = Some k -> In (loc, k) ps.
Proof.
  intros loc ps k. induction ps as [|[l k'] r IH]; simpl; intro H; [discriminate|].
  destruct (path_eqb loc l) eqn:E; [|auto]. apply path_eqb_eq in E. left. congruence.
Qed.

Lemma lookup_None : forall loc ps, lookup loc ps = None <-> ~ In loc (map fst ps).
Proof.
  intros loc ps. induction ps as [|[l k'] r IH]; simpl; [tauto|].
  destruct (path_eqb loc l) eqn:E.
  - apply path_eqb_eq in E. split; [discriminate|intros []; auto].
  - split; [intros H [<-|H']; [rewrite path_eqb_refl in E; discriminate|exact (proj1 IH H H')]|intro H; apply IH; auto].
Qed.

Lemma lookup_Some_dom : forall loc ps k, lookup loc ps = Some k -> In loc (map fst ps).
Proof. intros loc ps k H. apply lookup_In in H. exact (in_map fst _ _ H). Qed.

Lemma dom_lookup : forall loc ps, In loc (map fst ps) -> exists k, lookup loc ps = Some k.
Proof.
  intros loc ps H. destruct (lookup loc ps) as [k|] eqn:E; [eauto|]. apply lookup_None in E. contradiction.
Qed.

Lemma sprefix_spec : forall d l, sprefix d l = true <-> exists b, b <> [] /\ l = d ++ b.
Proof.
  intros d l. unfold sprefix. rewrite andb_true_iff, negb_true_iff, is_prefix_spec. split.
  - intros [[b ->] H2]. exists b. split; [|reflexivity]. intros ->. rewrite app_nil_r, path_eqb_refl in H2. discriminate.
  - intros (b & Hb & ->). split; [eauto|]. apply path_eqb_neq.
    intro E. rewrite <- (app_nil_r d) in E at 1. apply app_inv_head in E. congruence.
Qed.

Lemma is_anc_spec : forall d ps, is_anc d ps = true <-> exists l, In l (map fst ps) /\ sprefix d l = true.
Proof.
  intros d ps. unfold is_anc. rewrite existsb_exists. split.
  - intros ([l k] & Hin & H). exists l. split; [exact (in_map fst _ _ Hin)|exact H].
  - intros (l & Hin & H). apply in_map_iff in Hin as ([l' k] & <- & Hin). eauto.
Qed.

Lemma is_prefix_refl : forall a, is_prefix a a = true.
Proof. intro a. apply is_prefix_spec. exists []. symmetry. apply app_nil_r. Qed.

Lemma sprefix_prefix : forall a b, sprefix a b = true -> is_prefix a b = true.
Proof. intros a b H. apply andb_true_iff in H. tauto. Qed.

Lemma sprefix_neq : forall a b, sprefix a b = true -> a <> b.
Proof. intros a b H ->. apply andb_true_iff in H as [_ H]. rewrite path_eqb_refl in H. discriminate. Qed.

Lemma sprefix_trans : forall a b c, sprefix a b = true -> sprefix b c = true -> sprefix a c = true.
Proof.
  intros a b c H1 H2. apply sprefix_spec in H1 as (x & Hx & ->). apply sprefix_spec in H2 as (y & Hy & ->).
  apply sprefix_spec. exists (x ++ y). rewrite app_assoc. split; [destruct x; [congruence|discriminate]|reflexivity].
Qed.

Lemma sprefix_parent : forall d x : path, sprefix d x = true -> d = parent x \/ sprefix d (parent x) = true.
Proof.
  intros d x H. apply sprefix_spec in H as (b & Hb & ->). destruct (exists_last Hb) as (b' & c & ->).
  rewrite app_assoc, parent_snoc. destruct b' as [|c' b']; [left; symmetry; apply app_nil_r|right].
  apply sprefix_spec. exists (c' :: b'). split; [discriminate|reflexivity].
Qed.

Lemma snoc_neq : forall (X : path) c, X <> X ++ [c].
Proof. intros X c E. apply (f_equal (@List.length comp)) in E. rewrite app_length in E. simpl in E. lia. Qed.

Lemma visible_prefix : forall a b, is_prefix a b = true -> visible b = true -> visible a = true.
Proof. intros a b H Hv. apply is_prefix_spec in H as [c ->]. exact (visible_app_l _ _ Hv). Qed.

Section Refine.
  Variable root data : path.
  Variable enc menc : bytes -> bytes.

  Notation blobs_dir := (blobs_dir root).
  Notation blob := (blob root).
  Notation meta := (meta root).
  Notation pstep := (pstep root data enc menc).
  Notation run_seq := (run_seq root data enc menc).
  Notation good_op := (good_op data).
  Notation good_loc := (good_loc data).
  Notation BlobInv := (BlobInv root enc menc).
  Notation LinkInv := (LinkInv root).
  Notation separated := (separated root data).
  Notation init_dirs := (init_dirs root data).
  Notation anc_dirs := (anc_dirs data).

  Definition spec_op (st : astate) (o : opcall) : astate * result :=
    match o with
    | OpInit => (st, RUnit)
    | OpStore k => (AState (k :: a_keys st) (a_paths st), RUnit)
    | OpHas k => (st, RBool (mem k (a_keys st)))
    | OpFetch k => (st, if mem k (a_keys st) then RBlob k (menc k) (enc k) else RNone)
    | OpSync items => (AState (a_keys st) (sync_paths items (a_paths st)), RUnit)
    | OpFetchPath loc => (st, match lookup loc (a_paths st) with Some k => RKey (blob k) | None => RErr end)
    end.

  Fixpoint spec_run (st : astate) (ops : list opcall) : list result :=
    match ops with
    | [] => []
    | o :: r => snd (spec_op st o) :: spec_run (fst (spec_op st o)) r
    end.
  Fixpoint spec_state (st : astate) (ops : list opcall) : astate :=
    match ops with
    | [] => st
    | o :: r => spec_state (fst (spec_op st o)) r
    end.

  Definition prefix_free (ls : list path) : Prop :=
    forall l l', In l ls -> In l' ls -> is_prefix l l' = true -> l = l'.

  (* [D]: directories of the data tree that no bound location accounts for (a process that crashed between makedirs and
     the link swap leaves them behind); none when the store was only ever used by complete sequential runs *)
  Definition zoneD (D : path -> Prop) (fs : fsys) (ps : list (path * bytes)) (x : path) : Prop :=
    match lookup x ps with
    | Some k => fs x = Some (NLink (blob k))
    | None => if is_anc x ps then fs x = Some NDir else (fs x = None \/ (fs x = Some NDir /\ D x))
    end.

  (* the abstraction relation for a process [pid] that runs on a file system holding leftovers of dead processes *)
  Definition Rp (pid : nat) (D : path -> Prop) (fs : fsys) (st : astate) : Prop :=
    visible root = true /\ visible data = true /\
    (* the directories of the store exist *)
    (forall d, In d init_dirs -> fs d = Some NDir) /\
    fs data = Some NDir /\
    BlobInv fs /\ LinkInv fs /\
    (* no temporary OF THIS PROCESS exists (temporaries of other pids may be anywhere) *)
    (forall X b n, fs (X ++ [CTmp b pid n]) = None) /\
    (* stored keys = keys whose metadata file exists *)
    (forall k, good_key k = true -> (fs (meta k) <> None <-> In k (a_keys st))) /\
    (* bound locations: good requests, pointing at stored keys, prefix-free *)
    (forall l k, In (l, k) (a_paths st) -> good_key k = true /\ In k (a_keys st) /\ good_loc l) /\
    prefix_free (map fst (a_paths st)) /\
    (* the data tree: links at bound locations, directories at their strict ancestors, else nothing or a directory of D *)
    (forall x, good_loc x -> zoneD D fs (a_paths st) x) /\
    (* ... and it is a tree: below data, whatever exists sits in directories *)
    (forall x d, good_loc x -> good_loc d -> sprefix d x = true -> fs x <> None -> fs d = Some NDir).

  Definition no_dirs : path -> Prop := fun _ => False.
  (* no leftovers at all: no temporary of anybody, no unaccounted directory *)
  Definition R (fs : fsys) (st : astate) : Prop :=
    Rp 0 no_dirs fs st /\ forall x, visible x = false -> fs x = None.

  (* sequential executions as a relation: the steps run_seq takes (whole writes) *)
  Definition live (p : proc) : bool :=
    match p_pc p, p_todo p with
    | PIdle, [] => false
    | PFailed, _ => false
    | _, _ => true
    end.
  Definition whole (p : proc) : nat :=
    match p_pc p with PSB_write _ r | PSM_write _ r => List.length r | _ => 0 end.

  Inductive steps : fsys -> proc -> fsys -> proc -> Prop :=
  | steps_refl : forall fs p, steps fs p fs p
  | steps_step : forall fs p fs1 p1 fs2 p2,
      live p = true -> pstep fs p (whole p) = (fs1, p1) -> steps fs1 p1 fs2 p2 -> steps fs p fs2 p2.

  Lemma steps_trans : forall fs p fs1 p1 fs2 p2, steps fs p fs1 p1 -> steps fs1 p1 fs2 p2 -> steps fs p fs2 p2.
  Proof.
    intros fs p fs1 p1 fs2 p2 H. induction H as [|fs p fa pa fb pb Hl Hs Hr IH]; intro H2; [exact H2|].
    eapply steps_step; [exact Hl|exact Hs|]. apply IH. exact H2.
  Qed.

  Lemma steps_one : forall fs p fs1 p1, live p = true -> pstep fs p (whole p) = (fs1, p1) -> steps fs p fs1 p1.
  Proof. intros fs p fs1 p1 Hl Hs. eapply steps_step; [exact Hl|exact Hs|apply steps_refl]. Qed.

  Lemma run_seq_S : forall f fs p acc, live p = true ->
    run_seq (S f) fs p acc =
    let '(fs', p') := pstep fs p (whole p) in run_seq f fs' p' (acc ++ trace_of root fs p).
  Proof.
    intros f fs [pid cnt c todo outs] acc Hl.
    destruct c; try reflexivity; [destruct todo; [discriminate|reflexivity]|discriminate].
  Qed.

  Lemma steps_run_seq : forall fs p fs' p', steps fs p fs' p' ->
    exists fuel, forall acc, exists t, run_seq fuel fs p acc = (fs', p', t).
  Proof.
    intros fs p fs' p' H. induction H as [fs p|fs p fa pa fb pb Hl Hs Hr [fuel IH]].
    - exists 0. intro acc. exists acc. reflexivity.
    - exists (S fuel). intro acc. rewrite (run_seq_S fuel fs p acc Hl), Hs. apply IH.
  Qed.

  (* fuel can always be added once the process is idle with nothing left to do *)
  Lemma run_seq_done : forall f fs p acc, p_pc p = PIdle -> p_todo p = [] -> run_seq f fs p acc = (fs, p, acc).
  Proof. intros f fs [pid cnt c todo outs] acc H1 H2. cbn in H1, H2. subst. destruct f; reflexivity. Qed.

  Lemma steps_cnt_mono : forall fa pa fb pb, steps fa pa fb pb -> p_cnt pa <= p_cnt pb.
  Proof.
    intros fa pa fb pb H. induction H as [|fa pa fb pb fc pc Hl Hs Hr IH]; [lia|].
    destruct (pstep_ids root data enc menc fa pa (whole pa)) as (_ & Hc & _). rewrite Hs in Hc. simpl in Hc. lia.
  Qed.

  (* the process, run alone from fs, comes to rest with nothing left to do; Q: the file system and the outputs then.
     The theorems about R below spell this out, as the Properties files do. *)
  Definition finishes (fs : fsys) (p : proc) (Q : fsys -> list result -> Prop) : Prop :=
    exists fuel, let '(fs', p', _) := run_seq fuel fs p [] in p_pc p' = PIdle /\ p_todo p' = [] /\ Q fs' (p_outs p').

  Lemma finishes_mono : forall fs p (Q Q' : fsys -> list result -> Prop),
    finishes fs p Q -> (forall fs' outs, Q fs' outs -> Q' fs' outs) -> finishes fs p Q'.
  Proof.
    intros fs p Q Q' [fuel H] HQ. exists fuel. destruct (run_seq fuel fs p []) as [[fs' p'] t].
    destruct H as (H1 & H2 & H3). auto.
  Qed.

  Ltac red_pstep := lazy beta iota delta [LocalProgs.pstep tmpb tmpm tmpl p_pc p_pid p_cnt p_todo p_outs set_pc bump finish whole start].

  Lemma existsb_path_In : forall x l, existsb (path_eqb x) l = true <-> In x l.
  Proof.
    intros x l. rewrite existsb_exists. split.
    - intros (y & Hy & E). apply path_eqb_eq in E. congruence.
    - intro H. exists x. split; [exact H|apply path_eqb_refl].
  Qed.

  (* the private name of y did not exist in fs; since then only it has changed, and it holds n: renaming it to y succeeds,
     and what is left is fs with n at y *)
  Lemma install : forall (fs fs2 : fsys) pid cnt y n, visible y = true -> fs (tmp_of y pid cnt) = None ->
    fs2 (tmp_of y pid cnt) = Some n -> (forall z, z <> tmp_of y pid cnt -> fs2 z = fs z) ->
    fs y <> Some NDir -> fs (parent y) = Some NDir ->
    exists fs3, do_replace fs2 (tmp_of y pid cnt) y = Some fs3 /\ forall x, fs3 x = upd fs y (Some n) x.
  Proof.
    intros fs fs2 pid cnt y n Hv Ht H2 Hfr Hy Hp. set (t := tmp_of y pid cnt) in *.
    assert (Hne : y <> t) by (apply tmp_of_neq_visible; exact Hv).
    assert (Hne' : parent y <> t) by (apply tmp_of_neq_visible, parent_visible; exact Hv).
    eexists. split; [apply (do_replace_eq fs2 t y n H2); rewrite Hfr by assumption; assumption|].
    intro x. destruct (path_eq_dec x t) as [->|E].
    - rewrite upd_same, upd_other; congruence.
    - rewrite (upd_other _ _ _ _ E). unfold upd. rewrite (Hfr _ E). reflexivity.
  Qed.

  (* store_blob writes two files the same way: under a private name, then renamed.  [fkind] says which one. *)
  Inductive fkind := FBlob | FMeta.
  Definition fpath (f : fkind) (k : bytes) : path := match f with FBlob => blob k | FMeta => meta k end.
  Definition fdata (f : fkind) (k : bytes) : bytes := match f with FBlob => enc k | FMeta => menc k end.
  Definition f_create (f : fkind) (k : bytes) : pc := match f with FBlob => PSB_create k | FMeta => PSM_create k end.
  Definition f_write (f : fkind) (k r : bytes) : pc := match f with FBlob => PSB_write k r | FMeta => PSM_write k r end.
  Definition f_close (f : fkind) (k : bytes) : pc := match f with FBlob => PSB_close k | FMeta => PSM_close k end.
  Definition f_replace (f : fkind) (k : bytes) : pc := match f with FBlob => PSB_replace k | FMeta => PSM_replace k end.
  (* the process after the rename *)
  Definition f_done (f : fkind) (pid cnt : nat) (k : bytes) (todo : list opcall) (outs : list result) : proc :=
    match f with
    | FBlob => Proc pid (S cnt) (PSM_create k) todo outs
    | FMeta => Proc pid (S cnt) PIdle todo (outs ++ [RUnit])
    end.

  Ltac red_file := cbn [f_create f_write f_close f_replace]; red_pstep.

  Lemma fpath_visible : forall f k, visible root = true -> visible (fpath f k) = true.
  Proof. intros [] k H; [apply blob_visible|apply meta_visible]; exact H. Qed.
  Lemma parent_fpath : forall f k, parent (fpath f k) = blobs_dir.
  Proof. intros [] k; apply parent_snoc. Qed.

  Lemma blobs_dir_neq_blob : forall k, blobs_dir <> blob k.
  Proof. intro k. apply snoc_neq. Qed.
  Lemma blobs_dir_neq_meta : forall k, blobs_dir <> meta k.
  Proof. intro k. apply snoc_neq. Qed.

  Section Calls.
    Variable pid : nat.
    Variable todo : list opcall.
    Variable outs : list result.
    Notation P cnt c := (Proc pid cnt c todo outs).
    (* the operation [o] is next; afterwards the process is idle and has answered [r] *)
    Notation runs fs cnt o fs' cnt' r :=
      (steps fs (Proc pid cnt PIdle (o :: todo) outs) fs' (Proc pid cnt' PIdle todo (outs ++ [r]))).

    Lemma st_start : forall cnt fs o, steps fs (Proc pid cnt PIdle (o :: todo) outs) fs (P cnt (start root data o)).
    Proof. intros. apply steps_one; reflexivity. Qed.

    Lemma mkdir_step : forall cnt fs d r next n, fs (parent d) = Some NDir -> (fs d = None \/ fs d = Some NDir) ->
      exists fs1, pstep fs (P cnt (PMkdirs (d :: r) next)) n = (fs1, P cnt (PMkdirs r next)) /\
                  fs1 d = Some NDir /\ forall x, x <> d -> fs1 x = fs x.
    Proof.
      intros cnt fs d r next n Hp [Hd|Hd].
      - exists (upd fs d (Some NDir)). split; [|split; [apply upd_same|intros x Hx; apply upd_other; exact Hx]].
        red_pstep. unfold do_mkdir. rewrite Hd, (isdir_of_dir _ _ Hp). reflexivity.
      - exists fs. split; [|split; [exact Hd|reflexivity]].
        red_pstep. unfold do_mkdir. rewrite Hd, (isdir_of_dir _ _ Hd). reflexivity.
    Qed.

    Lemma mkdirs_exist : forall cnt dirs fs next, (forall d, In d dirs -> fs d = Some NDir) ->
      steps fs (P cnt (PMkdirs dirs next)) fs (P cnt (PMkdirs [] next)).
    Proof.
      induction dirs as [|d r IH]; intros fs next H; [apply steps_refl|].
      eapply steps_step; [reflexivity| |apply IH; intros d' Hd'; apply H; right; exact Hd'].
      pose proof (H d (or_introl eq_refl)) as Hd. red_pstep. unfold do_mkdir. rewrite Hd, (isdir_of_dir _ _ Hd). reflexivity.
    Qed.

    Lemma mkdirs_between : forall cnt rest base fs next, fs base = Some NDir ->
      (forall d, In d (dirs_between base rest) -> fs d = None \/ fs d = Some NDir) ->
      exists fs', steps fs (P cnt (PMkdirs (dirs_between base rest) next)) fs' (P cnt (PMkdirs [] next)) /\
                  (forall d, In d (dirs_between base rest) -> fs' d = Some NDir) /\
                  forall x, ~ In x (dirs_between base rest) -> fs' x = fs x.
    Proof.
      induction rest as [|c r IH]; intros base fs next Hb Hd.
      - exists fs. split; [apply steps_refl|]. split; [intros d []|reflexivity].
      - cbn [dirs_between] in *.
        destruct (mkdir_step cnt fs (base ++ [c]) (dirs_between (base ++ [c]) r) next 0) as (fs1 & Hs & H1 & H2).
        { rewrite parent_snoc. exact Hb. }
        { apply Hd. left. reflexivity. }
        destruct (IH (base ++ [c]) fs1 next H1) as (fs' & Hst & Hdir & Hfr).
        { intros d Hin. destruct (path_eq_dec d (base ++ [c])) as [->|E]; [auto|]. rewrite (H2 d E). apply Hd. right. exact Hin. }
        exists fs'. split; [eapply steps_step; [reflexivity|exact Hs|exact Hst]|]. split.
        + intros d [<-|Hin]; [|exact (Hdir d Hin)].
          destruct (in_dec path_eq_dec (base ++ [c]) (dirs_between (base ++ [c]) r)) as [H|H]; [exact (Hdir _ H)|].
          rewrite (Hfr _ H). exact H1.
        + intros x Hx. rewrite Hfr, H2; [reflexivity| |]; intro H; apply Hx; [left; congruence|right; exact H].
    Qed.

    Lemma init_steps : forall cnt fs, (forall d, In d init_dirs -> fs d = Some NDir) -> runs fs cnt OpInit fs cnt RUnit.
    Proof.
      intros cnt fs H. eapply steps_trans; [apply st_start|].
      eapply steps_trans; [apply mkdirs_exist; exact H|]. apply steps_one; reflexivity.
    Qed.

    (* the content is written at once, or there is nothing to write *)
    Lemma write_steps : forall f cnt fs k c, fs (tmp_of (fpath f k) pid cnt) = Some (NFile []) ->
      exists fs2, steps fs (P cnt (f_write f k c)) fs2 (P cnt (f_close f k)) /\
                  fs2 (tmp_of (fpath f k) pid cnt) = Some (NFile c) /\
                  forall x, x <> tmp_of (fpath f k) pid cnt -> fs2 x = fs x.
    Proof.
      intros f cnt fs k c Ht. destruct c as [|a r].
      - exists fs. split; [apply steps_one; destruct f; reflexivity|]. split; [exact Ht|reflexivity].
      - exists (upd fs (tmp_of (fpath f k) pid cnt) (Some (NFile (a :: r)))). split; [|split; [apply upd_same|]].
        + apply steps_step with (upd fs (tmp_of (fpath f k) pid cnt) (Some (NFile (a :: r)))) (P cnt (f_write f k []));
            [destruct f; reflexivity| |apply steps_one; destruct f; reflexivity].
          assert (Hn : forall l : bytes, l <> [] -> S (Nat.min (List.length l) (List.length l - 1)) = List.length l)
            by (intros [|b l] H; [congruence|]; cbn [List.length]; lia).
          destruct f; red_file; cbv zeta; rewrite Hn by discriminate; rewrite firstn_all, skipn_all;
            unfold do_append; cbn [fpath] in Ht; rewrite Ht; reflexivity.
        + intros x Hx. apply upd_other. exact Hx.
    Qed.

    Lemma file_steps : forall f cnt fs k,
      visible root = true -> fs blobs_dir = Some NDir -> fs (tmp_of (fpath f k) pid cnt) = None -> fs (fpath f k) <> Some NDir ->
      exists fs', steps fs (P cnt (f_create f k)) fs' (f_done f pid cnt k todo outs) /\
                  forall x, fs' x = upd fs (fpath f k) (Some (NFile (fdata f k))) x.
    Proof.
      intros f cnt fs k Hvr Hbd Ht Hy. rewrite <- (parent_fpath f k) in Hbd.
      set (y := fpath f k) in *. set (t := tmp_of y pid cnt) in *.
      destruct (write_steps f cnt (upd fs t (Some (NFile []))) k (fdata f k)) as (fs2 & Hw & Hw1 & Hw2); [apply upd_same|].
      destruct (install fs fs2 pid cnt y _ (fpath_visible f k Hvr) Ht Hw1) as (fs3 & Hr & Hf3); [|exact Hy|exact Hbd|].
      { intros z Hz. rewrite (Hw2 z Hz). apply upd_other. exact Hz. }
      exists fs3. split; [|exact Hf3].
      apply steps_step with (upd fs t (Some (NFile []))) (P cnt (f_write f k (fdata f k))); [destruct f; reflexivity| |].
      { destruct f; red_file; (rewrite do_create_eq; [reflexivity|exact Ht|]); unfold t; rewrite parent_tmp_of; exact Hbd. }
      eapply steps_trans; [exact Hw|].
      apply steps_step with fs2 (P cnt (f_replace f k)); [destruct f; reflexivity|destruct f; reflexivity|].
      apply steps_one; [destruct f; reflexivity|]. subst t y. destruct f; cbn [fpath] in Hr; red_file; rewrite Hr; reflexivity.
    Qed.

    Lemma has_steps : forall cnt fs k, runs fs cnt (OpHas k) fs cnt (RBool (fs_exists fs (meta k))).
    Proof. intros. eapply steps_step; [reflexivity|reflexivity|]. apply steps_one; reflexivity. Qed.

    Lemma fetch_present : forall cnt fs k m c, fs (meta k) = Some (NFile m) -> fs (blob k) = Some (NFile c) ->
      runs fs cnt (OpFetch k) fs cnt (RBlob k m c).
    Proof.
      intros cnt fs k m c Hm Hb.
      eapply steps_step; [reflexivity|reflexivity|].
      eapply steps_step; [reflexivity|red_pstep; unfold fs_exists; rewrite Hb; reflexivity|].
      eapply steps_step; [reflexivity|red_pstep; unfold fs_exists; rewrite Hm; reflexivity|].
      eapply steps_step; [reflexivity|red_pstep; unfold fs_read; rewrite Hm; reflexivity|].
      apply steps_one; [reflexivity|]. red_pstep. unfold fs_read. rewrite Hb. reflexivity.
    Qed.

    Lemma fetch_absent : forall cnt fs k c, fs (meta k) = None -> (forall n, fs (blob k) = Some n -> n = NFile c) ->
      runs fs cnt (OpFetch k) fs cnt RNone.
    Proof.
      intros cnt fs k c Hm Hb. eapply steps_step; [reflexivity|reflexivity|]. destruct (fs (blob k)) as [n|] eqn:E.
      - rewrite (Hb n eq_refl) in E.
        eapply steps_step; [reflexivity|red_pstep; unfold fs_exists; rewrite E; reflexivity|].
        apply steps_one; [reflexivity|]. red_pstep. unfold fs_exists. rewrite Hm. reflexivity.
      - apply steps_one; [reflexivity|]. red_pstep. unfold fs_exists. rewrite E. reflexivity.
    Qed.

    Lemma fpath_absent : forall cnt fs loc, (fs loc = None \/ fs loc = Some NDir) -> runs fs cnt (OpFetchPath loc) fs cnt RErr.
    Proof.
      intros cnt fs loc Hn. eapply steps_step; [reflexivity|reflexivity|].
      destruct (fs_exists fs (parent loc)) eqn:Ee.
      - eapply steps_step; [reflexivity|red_pstep; rewrite Ee; reflexivity|].
        apply steps_one; [reflexivity|]. red_pstep. unfold fs_islink. destruct Hn as [Hn|Hn]; rewrite Hn; reflexivity.
      - apply steps_one; [reflexivity|]. red_pstep. rewrite Ee. reflexivity.
    Qed.

    Lemma fpath_present : forall cnt fs loc t c,
      fs (parent loc) = Some NDir -> fs loc = Some (NLink t) -> fs t = Some (NFile c) ->
      runs fs cnt (OpFetchPath loc) fs cnt (RKey t).
    Proof.
      intros cnt fs loc t c Hp Hl Ht. eapply steps_step; [reflexivity|reflexivity|].
      eapply steps_step; [reflexivity|red_pstep; unfold fs_exists; rewrite Hp; reflexivity|].
      eapply steps_step; [reflexivity|red_pstep; unfold fs_islink, fs_exists; rewrite Hl, Ht; cbn [andb]; reflexivity|].
      apply steps_one; [reflexivity|]. red_pstep. unfold fs_realpath. rewrite Hl. reflexivity.
    Qed.
  End Calls.

  (* the directories made on the way to loc: its strict ancestors strictly below data *)
  Lemma anc_dirs_sprefix : forall loc d, good_loc loc -> (In d (anc_dirs loc) <-> good_loc d /\ sprefix d loc = true).
  Proof.
    intros loc d Hl. rewrite (anc_dirs_spec data loc d Hl). split.
    - intro Hd. split; [exact (anc_good_loc data d loc Hd (good_loc_visible data loc Hl))|].
      destruct Hd as (a & b & _ & Hb & _ & E). apply sprefix_spec. eauto.
    - intros [[_ (a & Ha & Hd)] Hs]. apply sprefix_spec in Hs as (b & Hb & E). exists a, b. auto.
  Qed.

  Lemma parent_in_anc : forall loc, good_loc loc -> parent loc = data \/ In (parent loc) (anc_dirs loc).
  Proof. intros loc Hl. rewrite (anc_dirs_spec data loc _ Hl). exact (anc_parent data loc Hl). Qed.

  Lemma parent_neq : forall loc : path, loc <> [] -> parent loc <> loc.
  Proof.
    intros loc Hne E. destruct (exists_last Hne) as (a & c & ->). rewrite parent_snoc in E. exact (snoc_neq a c E).
  Qed.

  Lemma good_loc_parent : forall d x, good_loc d -> visible x = true -> sprefix d (parent x) = true -> good_loc (parent x).
  Proof.
    intros d x [_ (a & Ha & ->)] Hv H. apply sprefix_spec in H as (b & Hb & E). split; [apply parent_visible; exact Hv|].
    exists (a ++ b). split; [destruct a; [congruence|discriminate]|]. rewrite E, app_assoc. reflexivity.
  Qed.

  (* R is Rp for every pid; a change that leaves the names that are not visible alone keeps R once it keeps Rp *)
  Lemma Rp_pid : forall pid pid' D fs st, Rp pid D fs st -> (forall X b n, fs (X ++ [CTmp b pid' n]) = None) -> Rp pid' D fs st.
  Proof.
    intros pid pid' D fs st (Hvr & Hvd & Hd & Hdata & HB & HL & _ & Hrest) Hnt.
    exact (conj Hvr (conj Hvd (conj Hd (conj Hdata (conj HB (conj HL (conj Hnt Hrest))))))).
  Qed.

  Lemma R_Rp : forall fs st pid, R fs st -> Rp pid no_dirs fs st.
  Proof. intros fs st pid [HR Hnt]. apply (Rp_pid 0 pid _ _ _ HR). intros X b n. apply Hnt, tmp_not_visible. Qed.

  Lemma Rp_R : forall fs st pid, Rp pid no_dirs fs st -> (forall x, visible x = false -> fs x = None) -> R fs st.
  Proof. intros fs st pid HR Hnt. split; [|exact Hnt]. apply (Rp_pid pid 0 _ _ _ HR). intros X b n. apply Hnt, tmp_not_visible. Qed.

  Lemma R_frame : forall pid fs fs' st st', R fs st -> Rp pid no_dirs fs' st' -> (forall x, visible x = false -> fs' x = fs x) ->
    R fs' st'.
  Proof. intros pid fs fs' st st' [_ Hnt] HR' Hfr. apply (Rp_R _ _ pid HR'). intros x Hx. rewrite (Hfr x Hx). auto. Qed.

  Lemma Rp_weaken : forall pid (D D' : path -> Prop) fs st, (forall x, D x -> D' x) -> Rp pid D fs st -> Rp pid D' fs st.
  Proof.
    intros pid D D' fs st HD (Hvr & Hvd & Hd & Hdata & HB & HL & Hnt & Hmk & Hwf & Hpf & Hz & HT).
    repeat (split; [assumption|]). split; [|exact HT].
    intros x Hx. specialize (Hz x Hx). unfold zoneD in *. destruct (lookup x (a_paths st)); [exact Hz|].
    destruct (is_anc x (a_paths st)); [exact Hz|]. destruct Hz as [Hz|[Hz1 Hz2]]; auto.
  Qed.

  Lemma R_visible_root : forall fs st, R fs st -> visible root = true.
  Proof. intros fs st [H _]. apply H. Qed.
  Lemma R_visible_data : forall fs st, R fs st -> visible data = true.
  Proof. intros fs st [H _]. apply H. Qed.
  Lemma R_exists_visible : forall fs st x n, R fs st -> fs x = Some n -> visible x = true.
  Proof. intros fs st x n [_ Hnt] Hx. destruct (visible x) eqn:E; [reflexivity|]. rewrite (Hnt x E) in Hx. discriminate. Qed.

  (* loc may be bound on top of ps: no other bound location is a prefix of it or lies below it *)
  Definition compat (ps : list (path * bytes)) (loc : path) : Prop :=
    forall l, In l (map fst ps) -> is_prefix l loc = true \/ is_prefix loc l = true -> l = loc.

  Section Op.
    Variable pid : nat.
    Variable D : path -> Prop.
    Variable fs : fsys.
    Variable st : astate.
    Hypothesis Hsep : separated.
    Hypothesis HR : Rp pid D fs st.

    Lemma Rp_blobs_dir : fs blobs_dir = Some NDir.
    Proof. pose proof HR as (_ & _ & Hd & _). apply Hd, in_or_app. right. apply in_or_app. right. left. reflexivity. Qed.

    Lemma Rp_zone : forall loc, good_loc loc -> zoneD D fs (a_paths st) loc.
    Proof. apply HR. Qed.

    Lemma Rp_link_iff : forall loc k, good_loc loc -> (fs loc = Some (NLink (blob k)) <-> lookup loc (a_paths st) = Some k).
    Proof.
      intros loc k Hl. pose proof (Rp_zone loc Hl) as Hz. unfold zoneD in Hz.
      destruct (lookup loc (a_paths st)) as [k'|] eqn:E.
      - rewrite Hz. split; [intros [= H1]; apply blob_inj in H1|]; congruence.
      - split; [|discriminate]. intro H. destruct (is_anc loc (a_paths st)); [congruence|]. destruct Hz as [Hz|[Hz _]]; congruence.
    Qed.

    (* a key is stored completely or not at all *)
    Lemma Rp_key : forall k, good_key k = true ->
      if mem k (a_keys st) then fs (meta k) = Some (NFile (menc k)) /\ fs (blob k) = Some (NFile (enc k)) else fs (meta k) = None.
    Proof.
      intros k Hk. pose proof HR as (_ & _ & _ & _ & HB & _ & _ & Hmk & _). specialize (Hmk k Hk). destruct (HB k Hk) as [_ B2].
      rewrite <- mem_In in Hmk. destruct (fs (meta k)) as [n|].
      - rewrite (proj1 Hmk) by discriminate. destruct (B2 n eq_refl) as [-> Hb]. auto.
      - destruct (mem k (a_keys st)); [destruct (proj2 Hmk eq_refl eq_refl)|reflexivity].
    Qed.

    Lemma store_steps : forall cnt todo outs k, good_key k = true ->
      exists fs', steps fs (Proc pid cnt PIdle (OpStore k :: todo) outs) fs' (Proc pid (S (S cnt)) PIdle todo (outs ++ [RUnit])) /\
                  forall x, fs' x = upd (upd fs (blob k) (Some (NFile (enc k)))) (meta k) (Some (NFile (menc k))) x.
    Proof.
      intros cnt todo outs k Hk. pose proof HR as (Hvr & _ & _ & _ & HB & _ & Hnt & _). destruct (HB k Hk) as [B1 B2].
      destruct (file_steps pid todo outs FBlob cnt fs k Hvr Rp_blobs_dir (Hnt _ _ _)) as (fs1 & Hs1 & Hf1).
      { intro E. discriminate (B1 _ E). }
      destruct (file_steps pid todo outs FMeta (S cnt) fs1 k Hvr) as (fs2 & Hs2 & Hf2); cbn [fpath fdata f_create f_done] in *.
      - rewrite Hf1, upd_other; [exact Rp_blobs_dir|apply blobs_dir_neq_blob].
      - rewrite Hf1, upd_other; [apply Hnt|apply tmp_neq_name].
      - rewrite Hf1, upd_other; [|intro E; exact (blob_not_meta root k k Hk (eq_sym E))]. intro E. destruct (B2 _ E) as [[=] _].
      - exists fs2. split; [eapply steps_trans; [apply st_start|]; eapply steps_trans; eassumption|].
        intro x. rewrite Hf2. unfold upd at 1 2. destruct (path_eqb x (meta k)); [reflexivity|apply Hf1].
    Qed.

    Lemma Rp_store : forall fs' k, good_key k = true ->
      (forall x, fs' x = upd (upd fs (blob k) (Some (NFile (enc k)))) (meta k) (Some (NFile (menc k))) x) ->
      Rp pid D fs' (AState (k :: a_keys st) (a_paths st)).
    Proof.
      intros fs' k Hk Hf. pose proof HR as (Hvr & Hvd & Hd & Hdata & HB & HL & Hnt & Hmk & Hwf & Hpf & Hz & HT).
      assert (Hkeep : forall x, x <> meta k -> x <> blob k -> fs' x = fs x).
      { intros x H1 H2. rewrite Hf, !upd_other by assumption. reflexivity. }
      assert (Hfm : fs' (meta k) = Some (NFile (menc k))) by (rewrite Hf; apply upd_same).
      assert (Hfb : fs' (blob k) = Some (NFile (enc k))).
      { rewrite Hf, upd_other, upd_same; [reflexivity|apply blob_not_meta; exact Hk]. }
      (* the change is one that a writer of k may make: the invariants of CrashProofs survive it *)
      assert (HG : G root data enc menc (Proc pid 0 PIdle [] []) (Proc pid 0 PIdle [] []) fs fs').
      { intro x. destruct (path_eq_dec x (meta k)) as [->|E1]; [apply ChMeta with k; auto using meta_visible|].
        destruct (path_eq_dec x (blob k)) as [->|E2]; [apply ChBlob with k; auto using blob_visible|]. apply ChSame. auto. }
      assert (Hnf : forall x, fs x = Some NDir -> fs' x = Some NDir).
      { intros x Hx. rewrite <- Hx. apply Hkeep; intros ->.
        - destruct (HB k Hk) as [_ H2]. destruct (H2 _ Hx) as [[=] _].
        - destruct (HB k Hk) as [H1 _]. discriminate (H1 _ Hx). }
      assert (Hgz : forall x, good_loc x -> fs' x = fs x).
      { intros x Hgl. apply Hkeep; intros ->; apply (good_loc_not_in_blobs root data _ Hsep Hgl);
          [apply meta_in_blobs|apply blob_in_blobs]. }
      split; [exact Hvr|]. split; [exact Hvd|]. split; [auto|]. split; [auto|].
      split; [exact (G_BlobInv root data enc menc (conj Hsep (conj Hvr Hvd)) _ _ fs fs' HG HB)|].
      split; [exact (G_LinkInv root data enc menc _ _ fs fs' HG HL)|].
      split; [|split; [|split; [|split; [exact Hpf|split]]]].
      - intros X b n. rewrite Hkeep; [apply Hnt|apply tmp_neq_name|apply tmp_neq_name].
      - intros k' Hk'. cbn [a_keys]. destruct (path_eq_dec (meta k') (meta k)) as [E|E].
        + apply meta_inj in E as ->. rewrite Hfm. split; [intros _; left; reflexivity|discriminate].
        + rewrite Hkeep; [|exact E|intro E'; exact (blob_not_meta root k k' Hk (eq_sym E'))].
          rewrite (Hmk k' Hk'). split; [intro H; right; exact H|]. intros [<-|H]; [congruence|exact H].
      - intros l k0 Hin. destruct (Hwf l k0 Hin) as (A & B & C). split; [exact A|]. split; [right; exact B|exact C].
      - intros x Hgl. specialize (Hz x Hgl). unfold zoneD in *. rewrite (Hgz x Hgl). exact Hz.
      - intros x d Hgx Hgd Hs Hx. rewrite (Hgz x Hgx) in Hx. rewrite (Hgz d Hgd). exact (HT x d Hgx Hgd Hs Hx).
    Qed.

    (* sync_paths, one item: a location that is comparable with no other bound location and no leftover directory *)
    Section Item.
      Variable loc : path.
      Hypothesis Hl : good_loc loc.
      Hypothesis Hc : compat (a_paths st) loc.
      Hypothesis HD : ~ D loc.

      Lemma Rp_loc_free : fs loc = None \/ exists t, fs loc = Some (NLink t).
      Proof.
        pose proof (Rp_zone loc Hl) as Hz. unfold zoneD in Hz. destruct (lookup loc (a_paths st)) as [k'|]; [eauto|].
        destruct (is_anc loc (a_paths st)) eqn:Ea; [|destruct Hz as [Hz|[_ Hz]]; [auto|contradiction]].
        apply is_anc_spec in Ea as (l & Hin & Hs). destruct (sprefix_neq _ _ Hs). symmetry.
        apply Hc; [exact Hin|]. right. apply sprefix_prefix. exact Hs.
      Qed.

      Lemma Rp_anc : forall d, In d (anc_dirs loc) -> lookup d (a_paths st) = None /\ (fs d = None \/ fs d = Some NDir).
      Proof.
        intros d Hd. apply (anc_dirs_sprefix loc d Hl) in Hd as [Hgd Hs].
        pose proof (Rp_zone d Hgd) as Hz. unfold zoneD in Hz. destruct (lookup d (a_paths st)) as [k'|] eqn:E.
        - destruct (sprefix_neq _ _ Hs). apply Hc; [exact (lookup_Some_dom _ _ _ E)|]. left. apply sprefix_prefix. exact Hs.
        - split; [reflexivity|]. destruct (is_anc d (a_paths st)); [auto|]. destruct Hz as [Hz|[Hz _]]; auto.
      Qed.

      (* the data tree is a tree: when the parent exists, all the directories above exist *)
      Lemma Rp_anc_closed : fs_exists fs (parent loc) = true -> forall d, In d (anc_dirs loc) -> fs d = Some NDir.
      Proof.
        intros He d Hd. pose proof Hd as Hd'. apply (anc_dirs_sprefix loc d Hl) in Hd' as [Hgd Hs].
        destruct (sprefix_parent d loc Hs) as [->|Hs'].
        - destruct (Rp_anc _ Hd) as [_ [Hn|Hn]]; [|exact Hn]. unfold fs_exists in He. rewrite Hn in He. discriminate.
        - pose proof HR as (_ & _ & _ & _ & _ & _ & _ & _ & _ & _ & _ & HT).
          apply (HT (parent loc) d (good_loc_parent d loc Hgd (good_loc_visible data loc Hl) Hs') Hgd Hs').
          intro Hn. unfold fs_exists in He. rewrite Hn in He. discriminate.
      Qed.

      (* committing loc to k: the link at loc, the directories on the way to it, everything else as it was *)
      Definition linked (k : bytes) (fs' : fsys) : Prop :=
        fs' loc = Some (NLink (blob k)) /\ (forall d, In d (anc_dirs loc) -> fs' d = Some NDir) /\
        forall x, x <> loc -> ~ In x (anc_dirs loc) -> fs' x = fs x.

      Lemma linked_frame : forall k fs', linked k fs' -> forall x, ~ good_loc x -> fs' x = fs x.
      Proof.
        intros k fs' (_ & _ & Hfr) x Hx. apply Hfr; [congruence|]. intro H. apply (anc_dirs_sprefix loc x Hl) in H. tauto.
      Qed.

      Lemma item_steps : forall cnt todo outs k items,
        exists fs' cnt', steps fs (Proc pid cnt (PSP_next ((loc, k) :: items)) todo outs)
                               fs' (Proc pid cnt' (PSP_next items) todo outs) /\ linked k fs'.
      Proof.
        intros cnt todo outs k items. pose proof (good_loc_visible data loc Hl) as Hvl.
        pose proof HR as (_ & _ & _ & Hdata & _ & _ & Hnt & _).
        assert (Hla : forall d, In d (anc_dirs loc) -> good_loc d /\ d <> loc).
        { intros d H. apply (anc_dirs_sprefix loc d Hl) in H as [Hg H]. split; [exact Hg|exact (sprefix_neq _ _ H)]. }
        (* the directories *)
        assert (Hph1 : exists fs1, steps fs (Proc pid cnt (PSP_next ((loc, k) :: items)) todo outs)
                                         fs1 (Proc pid cnt (PSP_check loc k items) todo outs) /\
                       (forall d, In d (anc_dirs loc) -> fs1 d = Some NDir) /\
                       forall x, ~ In x (anc_dirs loc) -> fs1 x = fs x).
        { destruct (fs_exists fs (parent loc)) eqn:Ee.
          - exists fs. split; [apply steps_one; [reflexivity|]; red_pstep; rewrite Ee; reflexivity|].
            split; [exact (Rp_anc_closed Ee)|reflexivity].
          - destruct (mkdirs_between pid todo outs cnt (skipn (List.length data) (parent loc)) data fs (PSP_check loc k items) Hdata)
              as (fs1 & Hs & Hf); [intros d Hd; apply (Rp_anc d Hd)|].
            exists fs1. split; [|exact Hf]. eapply steps_step; [reflexivity|red_pstep; rewrite Ee; reflexivity|].
            eapply steps_trans; [exact Hs|]. apply steps_one; reflexivity. }
        destruct Hph1 as (fs1 & Hs1 & Hd1 & Hf1).
        assert (Hpar : fs1 (parent loc) = Some NDir).
        { destruct (parent_in_anc loc Hl) as [->|E]; [|exact (Hd1 _ E)].
          destruct (in_dec path_eq_dec data (anc_dirs loc)) as [H|H]; [exact (Hd1 _ H)|]. rewrite (Hf1 _ H). exact Hdata. }
        assert (Hloc1 : fs1 loc = fs loc) by (apply Hf1; intro H; exact (proj2 (Hla _ H) eq_refl)).
        pose proof Rp_loc_free as Hloc.
        (* the link: already there, or made under a private name and renamed *)
        destruct (fs_exists fs1 loc && path_eqb (fs_realpath fs1 loc) (blob k)) eqn:Ec.
        - exists fs1, cnt. split; [eapply steps_trans; [exact Hs1|]; apply steps_one; [reflexivity|]; red_pstep; rewrite Ec; reflexivity|].
          split; [|split; [exact Hd1|intros x _; exact (Hf1 x)]].
          apply andb_true_iff in Ec as [Ec1 Ec2]. unfold fs_exists, fs_realpath in *. rewrite Hloc1 in *.
          destruct Hloc as [Hn|[t Ht]]; [rewrite Hn in Ec1; discriminate|]. rewrite Ht in *. apply path_eqb_eq in Ec2. congruence.
        - set (t := tmp_of loc pid cnt).
          assert (Ht1 : fs1 t = None).
          { rewrite Hf1; [apply Hnt|]. intro H. apply Hla in H as [[Hv _] _]. unfold t, tmp_of in Hv. rewrite tmp_not_visible in Hv. discriminate. }
          destruct (install fs1 (upd fs1 t (Some (NLink (blob k)))) pid cnt loc _ Hvl Ht1 (upd_same _ _ _)) as (fs3 & Hr & Hf3);
            [intros z Hz; apply upd_other; exact Hz|rewrite Hloc1; destruct Hloc as [Hn|[t' Ht']]; congruence|exact Hpar|].
          exists fs3, (S cnt). split.
          + eapply steps_trans; [exact Hs1|].
            eapply steps_step; [reflexivity|red_pstep; rewrite Ec; reflexivity|].
            eapply steps_step; [reflexivity| |].
            { red_pstep. fold t. rewrite do_symlink_eq; [reflexivity|exact Ht1|]. unfold t. rewrite parent_tmp_of. exact Hpar. }
            apply steps_one; [reflexivity|]. red_pstep. rewrite Hr. reflexivity.
          + split; [rewrite Hf3; apply upd_same|]. split.
            * intros d H. rewrite Hf3, upd_other; [exact (Hd1 d H)|exact (proj2 (Hla d H))].
            * intros x Hx H. rewrite Hf3, upd_other; [exact (Hf1 x H)|exact Hx].
      Qed.

      Lemma Rp_item : forall fs' k, good_key k = true -> In k (a_keys st) -> linked k fs' ->
        Rp pid D fs' (AState (a_keys st) ((loc, k) :: a_paths st)).
      Proof.
        intros fs' k Hk Hin Hlk. pose proof (linked_frame k fs' Hlk) as Hng. destruct Hlk as (Hloc' & Hanc' & Hother).
        pose proof Rp_loc_free as Hfree. pose proof Rp_anc as Hanc. pose proof Rp_zone as Hzone.
        pose proof (fun d => anc_dirs_sprefix loc d Hl) as Haspec.
        pose proof HR as (Hvr & Hvd & Hd & Hdata & HB & HL & Hnt & Hmk & Hwf & Hpf & Hz & HT).
        assert (Hnb : forall x, in_blobs root x -> fs' x = fs x).
        { intros x Hx. apply Hng. intro Hg. exact (good_loc_not_in_blobs root data x Hsep Hg Hx). }
        assert (Hdk : forall x, fs x = Some NDir -> fs' x = Some NDir).
        { intros x Hx. destruct (in_dec path_eq_dec x (anc_dirs loc)) as [H|H]; [auto|].
          rewrite Hother; [exact Hx| |exact H]. intros ->. destruct Hfree as [Hn|[t Ht]]; congruence. }
        split; [exact Hvr|]. split; [exact Hvd|]. split; [auto|]. split; [auto|].
        split; [|split; [|split; [|split; [|split; [|split; [|split]]]]]].
        - intros k' Hk'. rewrite (Hnb _ (blob_in_blobs root k')), (Hnb _ (meta_in_blobs root k')). exact (HB k' Hk').
        - intros x t Hv Hx. destruct (in_dec path_eq_dec x (anc_dirs loc)) as [H|H]; [rewrite (Hanc' x H) in Hx; discriminate|].
          destruct (path_eq_dec x loc) as [->|E]; [rewrite Hloc' in Hx; injection Hx as <-; eauto|].
          rewrite (Hother x E H) in Hx. exact (HL x t Hv Hx).
        - intros X b n. rewrite Hng; [apply Hnt|]. intros [Hv _]. rewrite tmp_not_visible in Hv. discriminate.
        - intros k' Hk'. rewrite (Hnb _ (meta_in_blobs root k')). exact (Hmk k' Hk').
        - intros l k0 [[= <- <-]|H]; [auto|exact (Hwf l k0 H)].
        - intros l l' [<-|H1] [<-|H2] Hp; [reflexivity| | |exact (Hpf l l' H1 H2 Hp)].
          + symmetry. apply Hc; auto.
          + apply Hc; auto.
        - intros x Hgx. unfold zoneD. cbn [a_paths lookup is_anc existsb fst]. fold (is_anc x (a_paths st)).
          destruct (path_eq_dec x loc) as [->|Hxl]; [rewrite path_eqb_refl; exact Hloc'|]. rewrite (path_eqb_neq _ _ Hxl).
          destruct (in_dec path_eq_dec x (anc_dirs loc)) as [H|H].
          + destruct (Hanc x H) as [-> _]. rewrite (proj2 (proj1 (Haspec x) H)). exact (Hanc' x H).
          + destruct (sprefix x loc) eqn:Es; [destruct H; apply Haspec; auto|]. cbn [orb]. rewrite (Hother x Hxl H). exact (Hzone x Hgx).
        - intros x d Hgx Hgd Hs Hx.
          destruct (in_dec path_eq_dec x (anc_dirs loc)) as [H|H].
          + (* x is one of the directories above loc: so is d *)
            apply Hanc', Haspec. split; [exact Hgd|]. apply Haspec in H as [_ H]. exact (sprefix_trans _ _ _ Hs H).
          + destruct (path_eq_dec x loc) as [->|E]; [apply Hanc', Haspec; auto|].
            rewrite (Hother x E H) in Hx. exact (Hdk d (HT x d Hgx Hgd Hs Hx)).
      Qed.
    End Item.
  End Op.

  (* R at a location strictly below data, in terms of the bindings *)
  Lemma R_link_iff : forall fs st loc k, R fs st -> good_loc loc ->
    (fs loc = Some (NLink (blob k)) <-> lookup loc (a_paths st) = Some k).
  Proof. intros fs st loc k [HR _]. exact (Rp_link_iff _ _ fs st HR loc k). Qed.

  Lemma R_absent : forall fs st loc, R fs st -> good_loc loc ->
    (fs loc = None -> lookup loc (a_paths st) = None) /\
    (lookup loc (a_paths st) = None -> fs loc = None \/ (fs loc = Some NDir /\ is_anc loc (a_paths st) = true)).
  Proof.
    intros fs st loc [HR _] Hl. pose proof (Rp_zone _ _ fs st HR loc Hl) as Hz. unfold zoneD in Hz.
    destruct (lookup loc (a_paths st)) as [k'|]; [split; [congruence|discriminate]|]. split; [reflexivity|]. intros _.
    destruct (is_anc loc (a_paths st)); [auto|]. destruct Hz as [Hz|[_ []]]. auto.
  Qed.

  (* committed locations stay prefix-free: a location bound by sync_paths is comparable with no other bound location *)
  Fixpoint items_locs_ok (ps : list (path * bytes)) (items : list (path * bytes)) : Prop :=
    match items with
    | [] => True
    | it :: r => compat ps (fst it) /\ items_locs_ok (pupd (fst it) (snd it) ps) r
    end.

  (* fetch_paths is asked about a location strictly below data.  (A directory of the data tree is allowed: because of
     the islink test in PP_stat_loc the model answers RErr for it, like the dictionary.  Outside data the relation R
     says nothing about links.) *)
  Definition op_locs_ok (st : astate) (o : opcall) : Prop :=
    match o with
    | OpSync items => items_locs_ok (a_paths st) items
    | OpFetchPath loc => good_loc loc
    | _ => True
    end.
  (* [op_stored_ok] is REQUIRED: OpSync [(loc, k)]; OpFetchPath loc  with k never stored leaves a dangling link, for
     which the model answers RErr (os.path.exists follows the link) whereas the dictionary answers RKey (blob k). *)
  Definition op_stored_ok (st : astate) (o : opcall) : Prop :=
    match o with
    | OpSync items => forall loc k, In (loc, k) items -> In k (a_keys st)
    | _ => True
    end.
  (* [op_avoid D] is REQUIRED when leftovers exist: a directory that a crashed process created on the way to a location it
     never committed (D) cannot be replaced by a link: os.replace(tmp, dir) fails.  E.g. a process crashes in
     sync_paths [(data/d/p, k)] after mkdir data/d; a later sync_paths [(data/d, k)] raises. *)
  Definition op_avoid (D : path -> Prop) (o : opcall) : Prop :=
    match o with
    | OpSync items => forall loc k, In (loc, k) items -> ~ D loc
    | _ => True
    end.

  Fixpoint locs_ok (st : astate) (ops : list opcall) : Prop :=
    match ops with
    | [] => True
    | o :: r => op_locs_ok st o /\ locs_ok (fst (spec_op st o)) r
    end.
  Fixpoint stored_ok (st : astate) (ops : list opcall) : Prop :=
    match ops with
    | [] => True
    | o :: r => op_stored_ok st o /\ stored_ok (fst (spec_op st o)) r
    end.

  Lemma avoid_no_dirs : forall o, op_avoid no_dirs o.
  Proof. intros []; simpl; auto. Qed.

  (* the process reaches the idle state, with [todo'] left and the outputs [outs'], in a file system related to st';
     the names that are not visible are left as they were *)
  Definition reaches (pid : nat) (D : path -> Prop) (fs : fsys) (p : proc) (st' : astate)
                     (todo' : list opcall) (outs' : list result) : Prop :=
    exists fs' cnt', steps fs p fs' (Proc pid cnt' PIdle todo' outs') /\ Rp pid D fs' st' /\
                     forall x, visible x = false -> fs' x = fs x.

  Lemma reaches_now : forall pid D fs st p cnt' todo' outs', Rp pid D fs st ->
    steps fs p fs (Proc pid cnt' PIdle todo' outs') -> reaches pid D fs p st todo' outs'.
  Proof. intros pid D fs st p cnt' todo' outs' HR Hs. exists fs, cnt'. auto. Qed.

  Lemma reaches_after : forall pid D fs p fs1 p1 st' todo' outs', steps fs p fs1 p1 ->
    (forall x, visible x = false -> fs1 x = fs x) -> reaches pid D fs1 p1 st' todo' outs' -> reaches pid D fs p st' todo' outs'.
  Proof.
    intros pid D fs p fs1 p1 st' todo' outs' Hs Hfr (fs' & cnt' & Hs' & HR' & Hfr'). exists fs', cnt'.
    split; [eapply steps_trans; eassumption|]. split; [exact HR'|]. intros x Hx. rewrite (Hfr' x Hx). auto.
  Qed.

  Lemma sync_refines : forall items pid D cnt todo outs fs st, separated -> Rp pid D fs st ->
    (forall loc k, In (loc, k) items -> good_key k = true /\ good_loc loc /\ In k (a_keys st) /\ ~ D loc) ->
    items_locs_ok (a_paths st) items ->
    reaches pid D fs (Proc pid cnt (PSP_next items) todo outs) (AState (a_keys st) (sync_paths items (a_paths st)))
            todo (outs ++ [RUnit]).
  Proof.
    induction items as [|[loc k] items IH]; intros pid D cnt todo outs fs st Hsep HR Hit Hlo.
    - destruct st. eapply reaches_now; [exact HR|]. apply steps_one; reflexivity.
    - destruct (Hit loc k (or_introl eq_refl)) as (Hk & Hl & Hin & HD). destruct Hlo as [Hc Hlo].
      destruct (item_steps pid D fs st HR loc Hl Hc HD cnt todo outs k items) as (fs1 & cnt1 & Hs1 & Hf1).
      apply (reaches_after _ _ _ _ _ _ _ _ _ Hs1).
      + intros x Hx. apply (linked_frame fs loc Hl k fs1 Hf1). intros [Hv _]. congruence.
      + apply (IH pid D cnt1 todo outs fs1 (AState (a_keys st) ((loc, k) :: a_paths st)) Hsep); [| |exact Hlo].
        * exact (Rp_item pid D fs st Hsep HR loc Hl Hc HD fs1 k Hk Hin Hf1).
        * intros l' k' H. apply Hit. right. exact H.
  Qed.

  Lemma op_refines_p : forall pid D fs st cnt todo outs o, separated -> Rp pid D fs st ->
    good_op o -> op_locs_ok st o -> op_stored_ok st o -> op_avoid D o ->
    reaches pid D fs (Proc pid cnt PIdle (o :: todo) outs) (fst (spec_op st o)) todo (outs ++ [snd (spec_op st o)]).
  Proof.
    intros pid D fs st cnt todo outs o Hsep HR Hg Hlo Hso Hav.
    destruct o as [|k|items|k|k|loc]; cbn [spec_op fst snd]; simpl in Hg.
    - (* init *) eapply reaches_now; [exact HR|]. apply init_steps. apply HR.
    - (* store *) destruct (store_steps pid D fs st HR cnt todo outs k Hg) as (fs' & Hs & Hf).
      exists fs', (S (S cnt)). split; [exact Hs|]. split; [exact (Rp_store pid D fs st Hsep HR fs' k Hg Hf)|].
      pose proof HR as (Hvr & _). intros x Hx. rewrite Hf, !upd_other; [reflexivity| |]; intros ->.
      + rewrite (blob_visible root k Hvr) in Hx. discriminate.
      + rewrite (meta_visible root k Hvr) in Hx. discriminate.
    - (* sync *) apply (reaches_after _ _ _ _ _ _ _ _ _ (st_start pid todo outs cnt fs (OpSync items))); [reflexivity|].
      apply sync_refines; try assumption. intros loc k H. destruct (Hg loc k H) as [Hk Hl]. exact (conj Hk (conj Hl (conj (Hso loc k H) (Hav loc k H)))).
    - (* has *) eapply reaches_now; [exact HR|]. pose proof (Rp_key pid D fs st HR k Hg) as Hk.
      replace (mem k (a_keys st)) with (fs_exists fs (meta k)); [apply has_steps|]. unfold fs_exists.
      destruct (mem k (a_keys st)); [destruct Hk as [Hk _]|]; rewrite Hk; reflexivity.
    - (* fetch *) eapply reaches_now; [exact HR|]. pose proof (Rp_key pid D fs st HR k Hg) as Hk.
      destruct (mem k (a_keys st)); [apply fetch_present; apply Hk|apply fetch_absent with (enc k); [exact Hk|]].
      pose proof HR as (_ & _ & _ & _ & HB & _). apply (HB k Hg).
    - (* fetch_paths *) simpl in Hlo. rename Hlo into Hl. eapply reaches_now; [exact HR|].
      pose proof (Rp_zone pid D fs st HR loc Hl) as Hz. unfold zoneD in Hz.
      pose proof HR as (_ & _ & _ & Hdata & _ & _ & _ & _ & Hwf & _ & _ & HT).
      destruct (lookup loc (a_paths st)) as [k|] eqn:E.
      + destruct (Hwf loc k (lookup_In _ _ _ E)) as (Hk & Hin & _).
        apply fpath_present with (enc k); [|exact Hz|].
        * destruct (parent_in_anc loc Hl) as [Ep|Hp]; [rewrite Ep; exact Hdata|].
          apply (anc_dirs_sprefix loc _ Hl) in Hp as [Hgp Hs].
          apply (HT loc (parent loc) Hl Hgp Hs). congruence.
        * pose proof (Rp_key pid D fs st HR k Hk) as Hb. rewrite (proj2 (mem_In _ _) Hin) in Hb. apply Hb.
      + apply fpath_absent. destruct (is_anc loc (a_paths st)); [right; exact Hz|].
        destruct Hz as [Hz|[Hz _]]; [left; exact Hz|right; exact Hz].
  Qed.

  Lemma op_refines : forall fs st pid cnt todo outs o, separated -> R fs st ->
    good_op o -> op_locs_ok st o -> op_stored_ok st o ->
    exists fs' cnt', steps fs (Proc pid cnt PIdle (o :: todo) outs)
                           fs' (Proc pid cnt' PIdle todo (outs ++ [snd (spec_op st o)])) /\
                     cnt <= cnt' /\ R fs' (fst (spec_op st o)).
  Proof.
    intros fs st pid cnt todo outs o Hsep HR Hg Hlo Hso.
    destruct (op_refines_p pid no_dirs fs st cnt todo outs o Hsep (R_Rp fs st pid HR) Hg Hlo Hso (avoid_no_dirs o))
      as (fs' & cnt' & Hs & HR' & Hfr).
    exists fs', cnt'. split; [exact Hs|]. split; [exact (steps_cnt_mono _ _ _ _ Hs)|exact (R_frame pid fs fs' _ _ HR HR' Hfr)].
  Qed.

  Lemma seq_refines_steps : forall ops pid D fs st cnt outs, separated -> Rp pid D fs st ->
    Forall good_op ops -> locs_ok st ops -> stored_ok st ops -> Forall (op_avoid D) ops ->
    reaches pid D fs (Proc pid cnt PIdle ops outs) (spec_state st ops) [] (outs ++ spec_run st ops).
  Proof.
    induction ops as [|o ops IH]; intros pid D fs st cnt outs Hsep HR Hg Hlo Hso Hav; cbn [spec_run spec_state].
    - rewrite app_nil_r. eapply reaches_now; [exact HR|apply steps_refl].
    - inversion Hg as [|o' ops' Hgo Hgr]; subst. inversion Hav as [|o' ops' Hav1 Hav2]; subst.
      destruct Hlo as [Hlo1 Hlo2]. destruct Hso as [Hso1 Hso2].
      destruct (op_refines_p pid D fs st cnt ops outs o Hsep HR Hgo Hlo1 Hso1 Hav1) as (fs1 & cnt1 & Hs1 & HR1 & Hfr1).
      apply (reaches_after _ _ _ _ _ _ _ _ _ Hs1 Hfr1).
      replace (outs ++ snd (spec_op st o) :: spec_run (fst (spec_op st o)) ops)
        with ((outs ++ [snd (spec_op st o)]) ++ spec_run (fst (spec_op st o)) ops) by (rewrite <- app_assoc; reflexivity).
      apply IH; assumption.
  Qed.

  (* The refinement on a file system that holds leftovers of dead processes: temporaries of other pids anywhere, and
     directories D that no bound location accounts for.  Names that are not visible are left exactly as they were. *)
  Theorem seq_refines_dictionary_with_leftovers : forall D fs st p ops,
    separated -> Rp (p_pid p) D fs st ->
    p_pc p = PIdle -> p_outs p = [] -> p_todo p = ops ->
    Forall good_op ops -> locs_ok st ops -> stored_ok st ops -> Forall (op_avoid D) ops ->
    finishes fs p (fun fs' outs => outs = spec_run st ops /\ Rp (p_pid p) D fs' (spec_state st ops) /\
                                   forall x, visible x = false -> fs' x = fs x).
  Proof.
    intros D fs st [pid cnt pc todo outs] ops Hsep HR Hpc Houts Htodo Hg Hlo Hso Hav.
    cbn [p_pc p_outs p_todo p_pid] in *. subst pc outs todo.
    destruct (seq_refines_steps ops pid D fs st cnt [] Hsep HR Hg Hlo Hso Hav) as (fs' & cnt' & Hs & HR' & Hfr).
    destruct (steps_run_seq _ _ _ _ Hs) as [fuel Hf]. destruct (Hf []) as [t Ht].
    exists fuel. rewrite Ht. cbn [p_pc p_todo p_outs app]. auto.
  Qed.

  Theorem seq_refines_dictionary : forall fs st p ops,
    separated -> R fs st ->
    p_pc p = PIdle -> p_outs p = [] -> p_todo p = ops ->
    Forall good_op ops -> locs_ok st ops -> stored_ok st ops ->
    exists fuel, let '(fs', p', _) := run_seq fuel fs p [] in
      p_pc p' = PIdle /\ p_todo p' = [] /\ p_outs p' = spec_run st ops /\ R fs' (spec_state st ops).
  Proof.
    intros fs st p ops Hsep HR Hpc Houts Htodo Hg Hlo Hso.
    apply (finishes_mono fs p _ (fun fs' outs => outs = spec_run st ops /\ R fs' (spec_state st ops))
             (seq_refines_dictionary_with_leftovers no_dirs fs st p ops Hsep (R_Rp fs st (p_pid p) HR) Hpc Houts Htodo Hg Hlo Hso
                (proj2 (Forall_forall _ _) (fun o _ => avoid_no_dirs o)))).
    intros fs' outs (H3 & H4 & H5). split; [exact H3|exact (R_frame _ fs fs' _ _ HR H4 H5)].
  Qed.

  (* R is satisfiable: exactly the directories of the store exist, nothing is stored, nothing is committed *)
  Definition init_fs : fsys := fun x =>
    if path_eqb x [] || existsb (path_eqb x) init_dirs || path_eqb x data then Some NDir else None.

  Lemma init_fs_some : forall x n, init_fs x = Some n ->
    n = NDir /\ (is_prefix x blobs_dir = true \/ is_prefix x data = true).
  Proof.
    intros x n H. unfold init_fs in H.
    destruct (path_eqb x [] || existsb (path_eqb x) init_dirs || path_eqb x data) eqn:E; [|discriminate].
    split; [congruence|]. rewrite !orb_true_iff, !path_eqb_eq, existsb_path_In in E. destruct E as [[->|E]| ->].
    - left. reflexivity.
    - exact (init_dirs_prefix root data x E).
    - right. apply is_prefix_refl.
  Qed.

  Lemma R_init : separated -> visible root = true -> visible data = true -> R init_fs (AState [] []).
  Proof.
    intros Hsep Hvr Hvd.
    assert (Hn : forall x, visible x = false \/ in_blobs root x \/ good_loc x -> init_fs x = None).
    { intros x Hx. destruct (init_fs x) as [n|] eqn:E; [exfalso|reflexivity]. apply init_fs_some in E as [_ E].
      destruct (prefix_dir_good root data (conj Hsep (conj Hvr Hvd)) x E) as (Hv & Hb & Hs).
      destruct Hx as [Hx|[Hx|[_ (segs & Hne & Ex)]]]; [congruence|auto|exact (Hs segs Hne Ex)]. }
    split; [|intros x Hx; apply Hn; auto]. split; [exact Hvr|]. split; [exact Hvd|].
    split; [|split; [|split; [|split; [|split; [|split; [|split; [|split; [|split]]]]]]]].
    - intros d Hd. unfold init_fs. rewrite (proj2 (existsb_path_In _ _) Hd). rewrite orb_true_r. reflexivity.
    - unfold init_fs. rewrite path_eqb_refl. rewrite orb_true_r. reflexivity.
    - intros k Hk. split; intros n Hn'; rewrite Hn in Hn'; try discriminate; right; left; [apply blob_in_blobs|apply meta_in_blobs].
    - intros loc t _ H. apply init_fs_some in H as [H _]. discriminate.
    - intros X b n. apply Hn. left. apply tmp_not_visible.
    - intros k Hk. cbn [a_keys]. rewrite Hn; [split; [congruence|intros []]|]. right. left. apply meta_in_blobs.
    - intros l k [].
    - intros l l' [].
    - intros x Hx. unfold zoneD. cbn [a_paths lookup is_anc existsb]. left. apply Hn. auto.
    - intros x d Hx _ _ H. destruct H. apply Hn. auto.
  Qed.

  Lemma spec_run_app : forall a st b, spec_run st (a ++ b) = spec_run st a ++ spec_run (spec_state st a) b.
  Proof. induction a as [|o a IH]; intros st b; [reflexivity|]. cbn [app spec_run spec_state]. rewrite IH. reflexivity. Qed.

  Lemma spec_state_app : forall a st b, spec_state st (a ++ b) = spec_state (spec_state st a) b.
  Proof. induction a as [|o a IH]; intros st b; [reflexivity|]. cbn [app spec_state]. apply IH. Qed.

  Lemma spec_run_length : forall ops st, List.length (spec_run st ops) = List.length ops.
  Proof. induction ops as [|o ops IH]; intro st; [reflexivity|]. cbn [spec_run List.length]. rewrite IH. reflexivity. Qed.

  Lemma keys_mono : forall ops st k, In k (a_keys st) -> In k (a_keys (spec_state st ops)).
  Proof.
    induction ops as [|o ops IH]; intros st k H; [exact H|]. cbn [spec_state]. apply IH.
    destruct o; cbn [spec_op fst a_keys]; try exact H. right. exact H.
  Qed.

  (* the answers to the operations [tl] that follow pre, o, mid are those of the state reached after pre, o, mid *)
  Lemma run_answers : forall fs st p pre o mid tl ans,
    separated -> R fs st -> p_pc p = PIdle -> p_outs p = [] -> p_todo p = pre ++ [o] ++ mid ++ tl ->
    Forall good_op (pre ++ [o] ++ mid ++ tl) -> locs_ok st (pre ++ [o] ++ mid ++ tl) -> stored_ok st (pre ++ [o] ++ mid ++ tl) ->
    spec_run (spec_state (fst (spec_op (spec_state st pre) o)) mid) tl = ans ->
    exists fuel rs, let '(_, p', _) := run_seq fuel fs p [] in
      p_pc p' = PIdle /\ p_todo p' = [] /\ List.length rs = List.length pre + 1 + List.length mid /\ p_outs p' = rs ++ ans.
  Proof.
    intros fs st p pre o mid tl ans Hsep HR Hpc Houts Htodo Hg Hlo Hso <-.
    destruct (seq_refines_dictionary fs st p _ Hsep HR Hpc Houts Htodo Hg Hlo Hso) as [fuel H].
    exists fuel, (spec_run st pre ++ [snd (spec_op (spec_state st pre) o)] ++ spec_run (fst (spec_op (spec_state st pre) o)) mid).
    destruct (run_seq fuel fs p []) as [[fs' p'] t]. destruct H as (H1 & H2 & H3 & _).
    split; [exact H1|]. split; [exact H2|]. split.
    - rewrite !app_length, !spec_run_length. simpl. lia.
    - rewrite H3, spec_run_app. cbn [app spec_run]. rewrite spec_run_app, <- !app_assoc. reflexivity.
  Qed.

  Theorem store_then_has_fetch : forall fs st p pre mid k,
    separated -> R fs st ->
    p_pc p = PIdle -> p_outs p = [] -> p_todo p = pre ++ [OpStore k] ++ mid ++ [OpHas k; OpFetch k] ->
    Forall good_op (pre ++ [OpStore k] ++ mid ++ [OpHas k; OpFetch k]) ->
    locs_ok st (pre ++ [OpStore k] ++ mid ++ [OpHas k; OpFetch k]) ->
    stored_ok st (pre ++ [OpStore k] ++ mid ++ [OpHas k; OpFetch k]) ->
    exists fuel rs, let '(_, p', _) := run_seq fuel fs p [] in
      p_pc p' = PIdle /\ p_todo p' = [] /\
      List.length rs = List.length pre + 1 + List.length mid /\
      p_outs p' = rs ++ [RBool true; RBlob k (menc k) (enc k)].
  Proof.
    intros fs st p pre mid k Hsep HR Hpc Houts Htodo Hg Hlo Hso. apply (run_answers fs st p pre (OpStore k) mid [OpHas k; OpFetch k]); try assumption.
    cbn [spec_run spec_op fst snd]. rewrite (proj2 (mem_In k _)); [reflexivity|]. apply keys_mono. left. reflexivity.
  Qed.

  Lemma sync_paths_eq : forall items ps, sync_paths items ps = rev items ++ ps.
  Proof.
    unfold sync_paths. induction items as [|[l k] r IH]; intro ps; [reflexivity|].
    cbn [fold_left fst snd rev]. rewrite IH. unfold pupd. rewrite <- app_assoc. reflexivity.
  Qed.

  Lemma lookup_app : forall loc a b,
    lookup loc (a ++ b) = match lookup loc a with Some k => Some k | None => lookup loc b end.
  Proof.
    intros loc a b. induction a as [|[l k] a IH]; [reflexivity|]. cbn [app lookup].
    destruct (path_eqb loc l); [reflexivity|exact IH].
  Qed.

  Definition commits_loc (loc : path) (o : opcall) : Prop :=
    match o with OpSync items => In loc (map fst items) | _ => False end.

  Lemma paths_keep : forall ops st loc k, lookup loc (a_paths st) = Some k ->
    (forall o, In o ops -> ~ commits_loc loc o) -> lookup loc (a_paths (spec_state st ops)) = Some k.
  Proof.
    induction ops as [|o ops IH]; intros st loc k H Hn; [exact H|]. cbn [spec_state]. apply IH.
    - pose proof (Hn o (or_introl eq_refl)) as Ho.
      destruct o as [|k'|items|k'|k'|loc']; cbn [spec_op fst a_paths]; try exact H.
      rewrite sync_paths_eq, lookup_app. simpl in Ho.
      assert (E : lookup loc (rev items) = None).
      { apply lookup_None. rewrite map_rev. rewrite <- in_rev. exact Ho. }
      rewrite E. exact H.
    - intros o' Ho'. apply Hn. right. exact Ho'.
  Qed.

  (* [lookup loc (rev items) = Some k]: (loc, k) is the last binding of loc in items *)
  Theorem sync_then_fetch_path : forall fs st p pre mid items loc k,
    separated -> R fs st ->
    p_pc p = PIdle -> p_outs p = [] -> p_todo p = pre ++ [OpSync items] ++ mid ++ [OpFetchPath loc] ->
    Forall good_op (pre ++ [OpSync items] ++ mid ++ [OpFetchPath loc]) ->
    locs_ok st (pre ++ [OpSync items] ++ mid ++ [OpFetchPath loc]) ->
    stored_ok st (pre ++ [OpSync items] ++ mid ++ [OpFetchPath loc]) ->
    lookup loc (rev items) = Some k ->
    (forall o, In o mid -> ~ commits_loc loc o) ->
    exists fuel rs, let '(_, p', _) := run_seq fuel fs p [] in
      p_pc p' = PIdle /\ p_todo p' = [] /\
      List.length rs = List.length pre + 1 + List.length mid /\
      p_outs p' = rs ++ [RKey (blob k)].
  Proof.
    intros fs st p pre mid items loc k Hsep HR Hpc Houts Htodo Hg Hlo Hso Hl Hn.
    apply (run_answers fs st p pre (OpSync items) mid [OpFetchPath loc]); try assumption.
    cbn [spec_run spec_op fst snd]. rewrite (paths_keep mid _ loc k); [reflexivity| |exact Hn].
    cbn [a_paths]. rewrite sync_paths_eq, lookup_app, Hl. reflexivity.
  Qed.
End Refine.

(* non-vacuity: the hypotheses of the refinement theorem hold for a concrete store and a concrete list of operations *)
Definition sx_loc : path := ex_data ++ [CName (bs "d"); CName (bs "p")].
Definition sx_ops : list opcall :=
  [OpInit; OpStore ex_key; OpSync [(sx_loc, ex_key)]; OpHas ex_key; OpFetch ex_key; OpFetchPath sx_loc].

Lemma seq_refines_example :
  exists fuel,
    let '(fs', p', _) := run_seq ex_root ex_data (fun k => k) (fun k => k) fuel
                                 (init_fs ex_root ex_data) (Proc 1 0 PIdle sx_ops []) [] in
    p_pc p' = PIdle /\ p_todo p' = [] /\
    p_outs p' = [RUnit; RUnit; RUnit; RBool true; RBlob ex_key ex_key ex_key; RKey (blob ex_root ex_key)] /\
    R ex_root ex_data (fun k => k) (fun k => k) fs' (AState [ex_key] [(sx_loc, ex_key)]).
Proof.
  assert (Hsep : separated ex_root ex_data) by (split; reflexivity).
  assert (HR : R ex_root ex_data (fun k => k) (fun k => k) (init_fs ex_root ex_data) (AState [] []))
    by (apply R_init; [exact Hsep|reflexivity|reflexivity]).
  assert (Hgl : good_loc ex_data sx_loc).
  { split; [reflexivity|]. exists [CName (bs "d"); CName (bs "p")]. split; [discriminate|reflexivity]. }
  assert (Hg : Forall (good_op ex_data) sx_ops).
  { constructor; [exact I|]. constructor; [reflexivity|]. constructor; [|repeat (constructor; [reflexivity|]); constructor].
    intros loc k [[= <- <-]|[]]. split; [reflexivity|exact Hgl]. }
  assert (Hlo : locs_ok ex_root ex_data (fun k => k) (fun k => k) (AState [] []) sx_ops).
  { simpl. intuition. intros l []. }
  assert (Hso : stored_ok ex_root (fun k => k) (fun k => k) (AState [] []) sx_ops).
  { simpl. intuition congruence. }
  destruct (seq_refines_dictionary ex_root ex_data (fun k => k) (fun k => k) _ _ (Proc 1 0 PIdle sx_ops []) sx_ops
              Hsep HR eq_refl eq_refl eq_refl Hg Hlo Hso) as [fuel H].
  exists fuel. destruct (run_seq ex_root ex_data (fun k => k) (fun k => k) fuel _ _ _) as [[fs' p'] t].
  destruct H as (H1 & H2 & H3 & H4). split; [exact H1|]. split; [exact H2|]. split; [|exact H4].
  rewrite H3. vm_compute. reflexivity.
Qed.
