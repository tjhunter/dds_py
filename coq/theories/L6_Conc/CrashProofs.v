(* Proofs of the crash / race theorems of the local store (C06, C07).
   One inductive invariant [Inv] over reachable states; the effect of one system call on the shared file system is
   summarised by a guarantee relation [G] (rely/guarantee style), from which stability of the other processes' local
   facts, BlobInv, LinkInv and the monotonicity facts follow.  What a process knows is split in two: [pc_ok], the state of
   the files it is writing, and its [work], the operations still to carry out, which only ever shrinks ([advance]) and
   carries the well-formedness of the requests and the evaluation discipline.
   Builds on the model files of the layer only; SeqRefine.v and Recovery.v take the guarantee, the invariants and the
   facts about single system calls from here; the results are restated in Properties/C06.v and C07.v. *)
From Coq Require Import List Ascii String Bool Arith Lia.
From DDS Require Import Base.Bytes Base.BytesFacts L6_Conc.FsOps L6_Conc.LocalProgs L6_Conc.ConcSpec.
Import ListNotations.

Lemma comp_eqb_eq : forall a b, comp_eqb a b = true <-> a = b.
Proof.
  intros [x|x p n] [y|y q m]; simpl; rewrite ?andb_true_iff, ?bytes_eqb_eq, ?Nat.eqb_eq; intuition congruence.
Qed.

Lemma path_eqb_eq : forall a b, path_eqb a b = true <-> a = b.
Proof.
  induction a as [|x r IH]; intros [|y s]; simpl; rewrite ?andb_true_iff, ?comp_eqb_eq, ?IH; intuition congruence.
Qed.

Lemma path_eqb_refl : forall a, path_eqb a a = true.
Proof. intro a. apply path_eqb_eq. reflexivity. Qed.

Lemma path_eqb_neq : forall a b, a <> b -> path_eqb a b = false.
Proof. intros a b H. destruct (path_eqb a b) eqn:E; [apply path_eqb_eq in E; contradiction|reflexivity]. Qed.

Lemma path_eq_dec : forall a b : path, {a = b} + {a <> b}.
Proof.
  intros a b. destruct (path_eqb a b) eqn:E; [left; apply path_eqb_eq; exact E|right].
  intro H. apply path_eqb_eq in H. congruence.
Qed.

Lemma upd_same : forall fs p n, upd fs p n p = n.
Proof. intros. unfold upd. rewrite path_eqb_refl. reflexivity. Qed.

Lemma upd_other : forall fs p n q, q <> p -> upd fs p n q = fs q.
Proof. intros fs p n q H. unfold upd. rewrite (path_eqb_neq q p H). reflexivity. Qed.

Lemma is_prefix_spec : forall a b, is_prefix a b = true <-> exists c, b = a ++ c.
Proof.
  induction a as [|x r IH]; intros b; simpl.
  - split; eauto.
  - destruct b as [|y s]; [split; [discriminate|intros [c [=]]]|].
    rewrite andb_true_iff, comp_eqb_eq, IH. split.
    + intros [-> [c ->]]. eauto.
    + intros [c [= -> ->]]. eauto.
Qed.

Lemma app_eq_prefix : forall (a x b y : path), a ++ x = b ++ y -> is_prefix a b = true \/ is_prefix b a = true.
Proof.
  induction a as [|c a IH]; intros x [|d b] y H; auto.
  injection H as -> H. simpl. rewrite (proj2 (comp_eqb_eq d d) eq_refl). exact (IH _ _ _ H).
Qed.

Lemma visible_app : forall a b, visible (a ++ b) = visible a && visible b.
Proof. intros. apply forallb_app. Qed.

Lemma tmp_not_visible : forall X b pid n, visible (X ++ [CTmp b pid n]) = false.
Proof. intros. rewrite visible_app. apply andb_false_r. Qed.

Lemma parent_snoc : forall (X : path) c, parent (X ++ [c]) = X.
Proof. intros. apply removelast_last. Qed.

Lemma good_key_not_meta : forall k k', good_key k = true -> k <> k' ++ meta_suffix.
Proof.
  intros k k' H ->. unfold good_key, all_hex in H. rewrite forallb_app in H.
  apply andb_true_iff in H as [H _]. apply andb_true_iff in H as [_ H]. discriminate H.
Qed.

Lemma replace_nth_length : forall A i (x : A) l, List.length (replace_nth i x l) = List.length l.
Proof. intros A i x l. revert i. induction l as [|y r IH]; intros [|j]; simpl; auto. Qed.

Lemma replace_nth_split : forall A i (p x : A) l, nth_error l i = Some p ->
  exists l1 l2, l = l1 ++ p :: l2 /\ replace_nth i x l = l1 ++ x :: l2.
Proof.
  intros A i p x l. revert i. induction l as [|y r IH]; intros [|j] H; try discriminate.
  - injection H as ->. exists [], r. auto.
  - destruct (IH j H) as (l1 & l2 & -> & E). exists (y :: l1), l2. simpl. rewrite E. auto.
Qed.

Lemma In_replace_nth : forall A i (x : A) l q, In q (replace_nth i x l) -> q = x \/ In q l.
Proof.
  intros A i x l. revert i. induction l as [|y r IH]; intros [|j] q H; simpl in *; try contradiction.
  - destruct H as [<-|H]; auto.
  - destruct H as [H|H]; [auto|]. destruct (IH j q H); auto.
Qed.

Lemma Exists_replace_nth : forall A (P : A -> Prop) l i p p',
  nth_error l i = Some p -> P p' \/ (Exists P l /\ (P p -> P p')) -> Exists P (replace_nth i p' l).
Proof.
  intros A P l i p p' Hn. destruct (replace_nth_split _ i p p' l Hn) as (l1 & l2 & -> & ->).
  rewrite !Exists_app, !Exists_cons. tauto.
Qed.

Lemma NoDup_map_injective : forall A B (f : A -> B) l p q, NoDup (map f l) -> In p l -> In q l -> f p = f q -> p = q.
Proof.
  intros A B f. induction l as [|y r IH]; intros p q Hnd Hp Hq E; simpl in *; [contradiction|].
  inversion Hnd as [|? ? H1 H2]; subst. destruct Hp as [->|Hp], Hq as [->|Hq]; auto.
  - contradict H1. rewrite E. apply in_map. exact Hq.
  - contradict H1. rewrite <- E. apply in_map. exact Hp.
Qed.

Lemma skipn_app_exact : forall A (a b : list A), skipn (List.length a) (a ++ b) = b.
Proof. intros A a b. induction a as [|x a IH]; simpl; auto. Qed.

Lemma dirs_between_spec : forall rest base d, In d (dirs_between base rest) <->
  exists a b, a <> [] /\ rest = a ++ b /\ d = base ++ a.
Proof.
  induction rest as [|c r IH]; intros base d; simpl.
  - split; [contradiction|]. intros (a & b & Ha & E & _). destruct a; [congruence|discriminate].
  - rewrite IH. split.
    + intros [<-|(a & b & Ha & -> & ->)]; [exists [c], r|exists (c :: a), b; rewrite <- app_assoc]; (split; [discriminate|auto]).
    + intros (a & b & Ha & E & ->). destruct a as [|c' a]; [congruence|]. injection E as <- ->.
      destruct a as [|c2 a]; [left; reflexivity|right]. exists (c2 :: a), b. rewrite <- app_assoc. split; [discriminate|auto].
Qed.

Lemma last_cons_default : forall A (l : list A) x d, last (x :: l) d = last l x.
Proof.
  intros A l. induction l as [|y l IH]; intros x d; [reflexivity|].
  change (last (x :: y :: l) d) with (last (y :: l) d). rewrite (IH y d), (IH y x). reflexivity.
Qed.

Fixpoint chain (prev : path) (dirs : list path) : Prop :=
  match dirs with [] => True | d :: r => parent d = prev /\ chain d r end.

Lemma dirs_between_chain : forall rest base, chain base (dirs_between base rest).
Proof. induction rest as [|c r IH]; intro base; simpl; [exact I|]. split; [apply parent_snoc|apply IH]. Qed.

Lemma dirs_between_last : forall rest base, last (dirs_between base rest) base = base ++ rest.
Proof.
  induction rest as [|c r IH]; intro base; [symmetry; apply app_nil_r|].
  change (dirs_between base (c :: r)) with ((base ++ [c]) :: dirs_between (base ++ [c]) r).
  rewrite last_cons_default, IH, <- app_assoc. reflexivity.
Qed.

Lemma isdir_of_dir : forall fs x, fs x = Some NDir -> fs_isdir fs x = true.
Proof. intros fs x H. unfold fs_isdir. rewrite H. reflexivity. Qed.

Lemma do_mkdir_some : forall fs d fs', do_mkdir fs d = Some fs' ->
  fs d = None /\ fs_isdir fs (parent d) = true /\ fs' = upd fs d (Some NDir).
Proof.
  intros fs d fs' H. unfold do_mkdir in H. destruct (fs d); [discriminate|].
  destruct (fs_isdir fs (parent d)); [|discriminate]. injection H as <-. auto.
Qed.

Lemma do_create_some : forall fs x fs', do_create fs x = Some fs' ->
  fs_isdir fs (parent x) = true /\ fs' = upd fs x (Some (NFile [])).
Proof.
  intros fs x fs' H. unfold do_create in H.
  destruct (fs x) as [[c|t|]|]; try discriminate; destruct (fs_isdir fs (parent x)); try discriminate;
    injection H as <-; auto.
Qed.

Lemma do_append_some : forall fs x chunk fs', do_append fs x chunk = Some fs' ->
  exists c, fs x = Some (NFile c) /\ fs' = upd fs x (Some (NFile (c ++ chunk))).
Proof.
  intros fs x chunk fs' H. unfold do_append in H. destruct (fs x) as [[c|t|]|]; try discriminate.
  injection H as <-. eauto.
Qed.

Lemma do_symlink_some : forall fs t x fs', do_symlink fs t x = Some fs' ->
  fs x = None /\ fs_isdir fs (parent x) = true /\ fs' = upd fs x (Some (NLink t)).
Proof.
  intros fs t x fs' H. unfold do_symlink in H. destruct (fs x); [discriminate|].
  destruct (fs_isdir fs (parent x)); [|discriminate]. injection H as <-. auto.
Qed.

Lemma do_replace_some : forall fs src dst fs', do_replace fs src dst = Some fs' ->
  exists n, fs src = Some n /\ fs dst <> Some NDir /\ fs_isdir fs (parent dst) = true /\
            fs' = upd (upd fs dst (Some n)) src None.
Proof.
  intros fs src dst fs' H. unfold do_replace in H. destruct (fs src) as [n|]; [|discriminate]. exists n.
  destruct (fs dst) as [[c|t|]|]; try discriminate; destruct (fs_isdir fs (parent dst)); try discriminate;
    injection H as <-; repeat split; congruence.
Qed.

Lemma do_create_eq : forall fs x, fs x = None -> fs (parent x) = Some NDir -> do_create fs x = Some (upd fs x (Some (NFile []))).
Proof. intros fs x H1 H2. unfold do_create. rewrite H1, (isdir_of_dir _ _ H2). reflexivity. Qed.

Lemma do_symlink_eq : forall fs t x, fs x = None -> fs (parent x) = Some NDir ->
  do_symlink fs t x = Some (upd fs x (Some (NLink t))).
Proof. intros fs t x H1 H2. unfold do_symlink. rewrite H1, (isdir_of_dir _ _ H2). reflexivity. Qed.

Lemma do_replace_eq : forall fs src dst nd, fs src = Some nd -> fs dst <> Some NDir -> fs (parent dst) = Some NDir ->
  do_replace fs src dst = Some (upd (upd fs dst (Some nd)) src None).
Proof.
  intros fs src dst nd H1 H2 H3. unfold do_replace. rewrite H1, (isdir_of_dir _ _ H3).
  destruct (fs dst) as [[c|t|]|]; try reflexivity. congruence.
Qed.

(* case split on everything a step reads *)
Ltac split_reads := repeat match goal with |- context [match ?x with _ => _ end] => destruct x eqn:? end.

Section Proofs.
  Variable root data : path.
  Variable enc menc : bytes -> bytes.

  Notation blobs_dir := (blobs_dir root).
  Notation blob := (blob root).
  Notation meta := (meta root).
  Notation pstep := (pstep root data enc menc).
  Notation good_op := (good_op data).
  Notation BlobInv := (BlobInv root enc menc).
  Notation LinkInv := (LinkInv root).
  Notation LinkLive := (LinkLive root enc menc).
  Notation complete := (complete root enc menc).
  Notation separated := (separated root data).
  Notation good_result := (good_result enc menc).
  Notation sys_step := (sys_step root data enc menc).
  Notation reachable := (reachable root data enc menc).
  Notation reachable_nospawn := (reachable_nospawn root data enc menc).
  Notation init_ok := (init_ok root data enc menc).

  Definition in_blobs (x : path) : Prop := exists c, x = blobs_dir ++ [c].
  Definition good_loc (loc : path) : Prop := visible loc = true /\ exists segs, segs <> [] /\ loc = data ++ segs.
  Definition good_dir (d : path) : Prop := visible d = true /\ ~ in_blobs d.
  Definition init_dirs : list path := dirs_between [] root ++ dirs_between [] data ++ [blobs_dir].

  (* the operation that a process at program counter c is carrying out, and all it still has to do *)
  Fixpoint current (c : pc) : list opcall :=
    match c with
    | PIdle | PFailed => []
    | PMkdirs _ next => current next
    | PSB_create k | PSB_write k _ | PSB_close k | PSB_replace k
    | PSM_create k | PSM_write k _ | PSM_close k | PSM_replace k => [OpStore k]
    | PSP_next items => [OpSync items]
    | PSP_check loc k items | PSP_symlink loc k items | PSP_replace loc k items => [OpSync ((loc, k) :: items)]
    | PHas k => [OpHas k]
    | PF_stat_blob k | PF_stat_meta k | PF_read_meta k | PF_read_blob k _ => [OpFetch k]
    | PP_stat_dir loc | PP_stat_loc loc | PP_realpath loc => [OpFetchPath loc]
    end.
  Definition work (p : proc) : list opcall := current (p_pc p) ++ p_todo p.

  (* what a process at program counter c knows about the files it is writing or has just seen; what follows makedirs
     starts from no such knowledge *)
  Fixpoint pc_ok (fs : fsys) (pid cnt : nat) (c : pc) : Prop :=
    match c with
    | PMkdirs dirs next => Forall good_dir dirs /\ forall fs', pc_ok fs' pid cnt next
    | PSB_write k rest => exists c, fs (tmp_of (blob k) pid cnt) = Some (NFile c) /\ c ++ rest = enc k
    | PSB_close k | PSB_replace k => fs (tmp_of (blob k) pid cnt) = Some (NFile (enc k))
    | PSM_create k => fs (blob k) = Some (NFile (enc k))
    | PSM_write k rest =>
      fs (blob k) = Some (NFile (enc k)) /\ exists c, fs (tmp_of (meta k) pid cnt) = Some (NFile c) /\ c ++ rest = menc k
    | PSM_close k | PSM_replace k =>
      fs (blob k) = Some (NFile (enc k)) /\ fs (tmp_of (meta k) pid cnt) = Some (NFile (menc k))
    | PSP_replace loc k items => fs (tmp_of loc pid cnt) = Some (NLink (blob k))
    | PF_read_meta k => fs (meta k) = Some (NFile (menc k))
    | PF_read_blob k m => m = menc k /\ fs (blob k) = Some (NFile (enc k))
    | _ => True
    end.

  Definition proc_ok (fs : fsys) (p : proc) : Prop :=
    pc_ok fs (p_pid p) (p_cnt p) (p_pc p) /\ Forall good_op (work p) /\ Forall good_result (p_outs p).

  (* the temporary numbered p_cnt of a process at program counter c may exist (a failed process may have left it behind) *)
  Definition busy (c : pc) : bool :=
    match c with
    | PSB_write _ _ | PSB_close _ | PSB_replace _ | PSM_write _ _ | PSM_close _ | PSM_replace _ | PSP_replace _ _ _ | PFailed => true
    | _ => false
    end.

  (* what one system call of process p (becoming p') may do to the name x *)
  Inductive chg (p p' : proc) (fs fs' : fsys) (x : path) : Prop :=
  | ChSame : fs' x = fs x -> chg p p' fs fs' x
  | ChTmp : forall X b, x = X ++ [CTmp b (p_pid p) (p_cnt p)] ->
      (fs' x = None \/ (p_cnt p' = p_cnt p /\ busy (p_pc p') = true)) -> chg p p' fs fs' x
  | ChMkdir : forall r next, visible x = true -> ~ in_blobs x -> fs x = None -> fs' x = Some NDir ->
      p_pc p = PMkdirs (x :: r) next -> chg p p' fs fs' x
  | ChBlob : forall k, visible x = true -> good_key k = true -> x = blob k -> fs' x = Some (NFile (enc k)) -> chg p p' fs fs' x
  | ChMeta : forall k, visible x = true -> good_key k = true -> x = meta k -> fs' x = Some (NFile (menc k)) ->
      fs' (blob k) = Some (NFile (enc k)) -> chg p p' fs fs' x
  | ChLink : forall k items, good_key k = true -> good_loc x -> p_pc p = PSP_replace x k items ->
      fs x <> Some NDir -> fs' x = Some (NLink (blob k)) -> chg p p' fs fs' x.

  Definition G (p p' : proc) (fs fs' : fsys) : Prop := forall x, chg p p' fs fs' x.

  Lemma blob_inj : forall k k', blob k = blob k' -> k = k'.
  Proof. intros k k' H. apply app_inv_head in H. congruence. Qed.

  Lemma meta_inj : forall k k', meta k = meta k' -> k = k'.
  Proof. intros k k' H. apply app_inv_head in H. injection H as H. exact (app_inv_tail _ _ _ H). Qed.

  Lemma blob_not_meta : forall k k', good_key k = true -> blob k <> meta k'.
  Proof. intros k k' Hk H. apply app_inv_head in H. injection H as H. exact (good_key_not_meta k k' Hk H). Qed.

  Lemma blob_in_blobs : forall k, in_blobs (blob k).
  Proof. intro k. exists (CName k). reflexivity. Qed.
  Lemma meta_in_blobs : forall k, in_blobs (meta k).
  Proof. intro k. exists (CName (k ++ meta_suffix)). reflexivity. Qed.

  Lemma in_blobs_not_tmp : forall x X b pid n, in_blobs x -> x = X ++ [CTmp b pid n] -> x = blob [] -> False.
  Proof.
    intros x X b pid n _ H1 H2. rewrite H2 in H1. unfold LocalProgs.blob in H1. apply app_inj_tail in H1 as [_ H1].
    discriminate.
  Qed.

  Lemma good_loc_visible : forall x, good_loc x -> visible x = true.
  Proof. intros x [H _]. exact H. Qed.

  Lemma good_loc_not_in_blobs : forall x, separated -> good_loc x -> in_blobs x -> False.
  Proof.
    intros x [Hs1 Hs2] [_ (segs & _ & ->)] [c Hc]. destruct (app_eq_prefix _ _ _ _ Hc); congruence.
  Qed.

  Lemma visible_app_l : forall a b, visible (a ++ b) = true -> visible a = true.
  Proof. intros a b H. rewrite visible_app in H. apply andb_true_iff in H. tauto. Qed.
  Lemma visible_app_r : forall a b, visible (a ++ b) = true -> visible b = true.
  Proof. intros a b H. rewrite visible_app in H. apply andb_true_iff in H. tauto. Qed.

  Lemma parent_visible : forall x, visible x = true -> visible (parent x) = true.
  Proof.
    intros [|c x] Hv; [reflexivity|]. destruct (exists_last (l := c :: x)) as (y & a & E); [discriminate|].
    rewrite E in *. rewrite parent_snoc. exact (visible_app_l _ _ Hv).
  Qed.

  Lemma tmp_neq_name : forall X b pid n (Y : path) s, X ++ [CTmp b pid n] <> Y ++ [CName s].
  Proof. intros X b pid n Y s E. apply app_inj_tail in E as [_ E]. discriminate. Qed.

  Lemma tmp_of_neq_visible : forall y pid cnt x, visible x = true -> x <> tmp_of y pid cnt.
  Proof. intros y pid cnt x Hv ->. unfold tmp_of in Hv. rewrite tmp_not_visible in Hv. discriminate. Qed.

  Lemma blobs_dir_visible : visible root = true -> visible blobs_dir = true.
  Proof. intro H. unfold LocalProgs.blobs_dir. rewrite visible_app, H. reflexivity. Qed.
  Lemma blob_visible : forall k, visible root = true -> visible (blob k) = true.
  Proof. intros k H. unfold LocalProgs.blob. rewrite visible_app, (blobs_dir_visible H). reflexivity. Qed.
  Lemma meta_visible : forall k, visible root = true -> visible (meta k) = true.
  Proof. intros k H. unfold LocalProgs.meta. rewrite visible_app, (blobs_dir_visible H). reflexivity. Qed.

  Lemma parent_tmp_of : forall y pid cnt, parent (tmp_of y pid cnt) = parent y.
  Proof. intros. apply parent_snoc. Qed.
  Lemma parent_blob : forall k, parent (blob k) = blobs_dir.
  Proof. intro k. apply parent_snoc. Qed.
  Lemma parent_meta : forall k, parent (meta k) = blobs_dir.
  Proof. intro k. apply parent_snoc. Qed.

  (* the store instance is well formed *)
  Definition static : Prop := separated /\ visible root = true /\ visible data = true.

  Section Store.
    Hypothesis Hst : static.

    Lemma static_separated : separated.
    Proof. apply Hst. Qed.
    Lemma static_root_visible : visible root = true.
    Proof. apply Hst. Qed.
    Lemma static_data_visible : visible data = true.
    Proof. apply Hst. Qed.

    Section Guarantee.
      Variables (p p' : proc) (fs fs' : fsys).
      Hypothesis HG : G p p' fs fs'.

      (* a temporary: only its owner touches it, and only the current one *)
      Lemma G_tmp : forall X b pid n,
        fs' (X ++ [CTmp b pid n]) = fs (X ++ [CTmp b pid n]) \/
        (pid = p_pid p /\ n = p_cnt p /\ (fs' (X ++ [CTmp b pid n]) = None \/ (p_cnt p' = p_cnt p /\ busy (p_pc p') = true))).
      Proof.
        intros X b pid n.
        destruct (HG (X ++ [CTmp b pid n])) as [H|X' b' Hx Ht|r next Hv|k Hv|k Hv|k items _ [Hv _]];
          try (rewrite tmp_not_visible in Hv; discriminate).
        - left. exact H.
        - apply app_inj_tail in Hx as [_ [= _ -> ->]]. auto.
      Qed.

      Lemma G_tmp_other : forall y pid cnt, pid <> p_pid p -> fs' (tmp_of y pid cnt) = fs (tmp_of y pid cnt).
      Proof. intros y pid cnt Hpid. destruct (G_tmp (parent y) (last_name y) pid cnt) as [H|[H _]]; easy. Qed.

      Lemma G_at_blob : forall k, good_key k = true -> fs' (blob k) = fs (blob k) \/ fs' (blob k) = Some (NFile (enc k)).
      Proof.
        intros k Hk.
        destruct (HG (blob k)) as [H|X b Hx _|r next _ Hb _ _ _|k' _ _ Hx Hf|k' _ _ Hx _ _|k' items _ Hl _ _ _]; auto.
        - destruct (tmp_neq_name _ _ _ _ _ _ (eq_sym Hx)).
        - destruct (Hb (blob_in_blobs k)).
        - apply blob_inj in Hx as <-. auto.
        - destruct (blob_not_meta k k' Hk Hx).
        - destruct (good_loc_not_in_blobs _ static_separated Hl (blob_in_blobs k)).
      Qed.

      Lemma G_at_meta : forall k, fs' (meta k) = fs (meta k) \/
        (good_key k = true /\ fs' (meta k) = Some (NFile (menc k)) /\ fs' (blob k) = Some (NFile (enc k))).
      Proof.
        intros k.
        destruct (HG (meta k)) as [H|X b Hx _|r next _ Hb _ _ _|k' _ Hk' Hx _|k' _ Hk' Hx Hf Hb|k' items _ Hl _ _ _]; auto.
        - destruct (tmp_neq_name _ _ _ _ _ _ (eq_sym Hx)).
        - destruct (Hb (meta_in_blobs k)).
        - destruct (blob_not_meta k' k Hk' (eq_sym Hx)).
        - apply meta_inj in Hx as <-. auto.
        - destruct (good_loc_not_in_blobs _ static_separated Hl (meta_in_blobs k)).
      Qed.

      Lemma G_blob_mono : forall k, good_key k = true -> fs (blob k) = Some (NFile (enc k)) -> fs' (blob k) = Some (NFile (enc k)).
      Proof. intros k Hk H. destruct (G_at_blob k Hk); congruence. Qed.

      Lemma G_meta_mono : forall k, fs (meta k) = Some (NFile (menc k)) -> fs' (meta k) = Some (NFile (menc k)).
      Proof. intros k H. destruct (G_at_meta k) as [E|(_ & E & _)]; congruence. Qed.

      Lemma G_complete_mono : forall k, good_key k = true -> complete fs k -> complete fs' k.
      Proof. intros k Hk [H1 H2]. split; [apply G_meta_mono|apply G_blob_mono]; assumption. Qed.

      Lemma G_BlobInv : BlobInv fs -> BlobInv fs'.
      Proof.
        intros HB k Hk. destruct (HB k Hk) as [HB1 HB2]. split; intros n Hn.
        - destruct (G_at_blob k Hk) as [E|E]; [apply HB1|]; congruence.
        - destruct (G_at_meta k) as [E|(_ & E1 & E2)]; [|split; congruence].
          rewrite E in Hn. destruct (HB2 n Hn) as [H1 H2]. split; [exact H1|]. apply G_blob_mono; assumption.
      Qed.

      (* stability of local facts: of the other processes, and of the process itself when its temporary is untouched *)
      Lemma pc_ok_stable : forall pid cnt c, (forall y, fs' (tmp_of y pid cnt) = fs (tmp_of y pid cnt)) ->
        Forall good_op (current c) -> pc_ok fs pid cnt c -> pc_ok fs' pid cnt c.
      Proof.
        intros pid cnt c Ht Hg Hc.
        (* pc_ok speaks of the temporaries numbered cnt of pid, which Ht keeps, and of files that are installed: they stay so *)
        destruct c; cbn [pc_ok current] in *; try exact Hc; apply Forall_inv in Hg; rewrite ?Ht; try exact Hc.
        - (* PSM_create *) exact (G_blob_mono k Hg Hc).
        - (* PSM_write *) exact (conj (G_blob_mono k Hg (proj1 Hc)) (proj2 Hc)).
        - (* PSM_close *) exact (conj (G_blob_mono k Hg (proj1 Hc)) (proj2 Hc)).
        - (* PSM_replace *) exact (conj (G_blob_mono k Hg (proj1 Hc)) (proj2 Hc)).
        - (* PF_read_meta *) exact (G_meta_mono k Hc).
        - (* PF_read_blob *) exact (conj (proj1 Hc) (G_blob_mono k Hg (proj2 Hc))).
      Qed.

      Lemma G_at_link : forall x t, visible x = true -> fs' x = Some (NLink t) ->
        fs x = Some (NLink t) \/
        exists k items, good_key k = true /\ p_pc p = PSP_replace x k items /\ t = blob k.
      Proof.
        intros x t Hv Hx.
        destruct (HG x) as [H|X b Hx' _|r next _ _ _ Hd _|k _ _ _ Hf|k _ _ _ Hf _|k items Hk _ Hpc _ Hf]; try congruence.
        - left. congruence.
        - rewrite Hx', tmp_not_visible in Hv. discriminate.
        - right. exists k, items. repeat split; congruence.
      Qed.

      Lemma G_LinkInv : LinkInv fs -> LinkInv fs'.
      Proof. intros HL x t Hv Hx. destruct (G_at_link x t Hv Hx) as [H|(k & items & Hk & _ & Ht)]; eauto. Qed.

      (* what a visible directory or link becomes: by BlobInv it is no name of a blob or metadata file *)
      Lemma G_at_vis : forall x, BlobInv fs -> visible x = true ->
        fs x = Some NDir \/ (exists t, fs x = Some (NLink t)) ->
        fs' x = fs x \/ exists k items, p_pc p = PSP_replace x k items /\ fs x <> Some NDir /\ fs' x = Some (NLink (blob k)).
      Proof.
        intros x HB Hv Hx.
        destruct (HG x) as [H|X b Hx' _|r next _ _ Hn _ _|k _ Hk -> _|k _ Hk -> _ _|k items Hk _ Hpc Hd Hf].
        - left. exact H.
        - rewrite Hx', tmp_not_visible in Hv. discriminate.
        - destruct Hx as [Hx|[t Hx]]; congruence.
        - destruct (HB k Hk) as [HB1 _]. destruct Hx as [Hx|[t Hx]]; discriminate (HB1 _ Hx).
        - destruct (HB k Hk) as [_ HB2]. destruct Hx as [Hx|[t Hx]]; destruct (HB2 _ Hx) as [[=] _].
        - right. eauto.
      Qed.

      Lemma G_dir_mono : forall x, BlobInv fs -> visible x = true -> fs x = Some NDir -> fs' x = Some NDir.
      Proof. intros x HB Hv Hx. destruct (G_at_vis x HB Hv) as [H|(k & items & _ & H & _)]; auto; congruence. Qed.

      Lemma G_loc : forall x, good_loc x ->
        fs' x = fs x \/
        (fs x = None /\ fs' x = Some NDir /\ exists r next, p_pc p = PMkdirs (x :: r) next) \/
        (fs x <> Some NDir /\ exists k items, p_pc p = PSP_replace x k items /\ fs' x = Some (NLink (blob k))).
      Proof.
        intros x Hl.
        destruct (HG x) as [H|X b Hx _|r next _ _ Hn Hd Hpc|k _ _ -> _|k _ _ -> _ _|k items _ _ Hpc Hd Hf]; eauto 8.
        - destruct Hl as [Hv _]. rewrite Hx, tmp_not_visible in Hv. discriminate.
        - destruct (good_loc_not_in_blobs _ static_separated Hl (blob_in_blobs k)).
        - destruct (good_loc_not_in_blobs _ static_separated Hl (meta_in_blobs k)).
      Qed.
    End Guarantee.

    Lemma init_dirs_prefix : forall d, In d init_dirs -> is_prefix d blobs_dir = true \/ is_prefix d data = true.
    Proof.
      intros d Hd. unfold init_dirs in Hd. rewrite !in_app_iff in Hd. destruct Hd as [Hd|[Hd|[<-|[]]]].
      - left. apply dirs_between_spec in Hd as (a & b & _ & Hr & ->). apply is_prefix_spec.
        exists (b ++ [CName (bs "blobs")]). unfold LocalProgs.blobs_dir. rewrite Hr, <- app_assoc. reflexivity.
      - right. apply dirs_between_spec in Hd as (a & b & _ & -> & ->). apply is_prefix_spec. eauto.
      - left. apply is_prefix_spec. exists []. symmetry. apply app_nil_r.
    Qed.

    Lemma prefix_dir_good : forall x, is_prefix x blobs_dir = true \/ is_prefix x data = true ->
      visible x = true /\ ~ in_blobs x /\ forall segs, segs <> [] -> x <> data ++ segs.
    Proof.
      intros x Hx. destruct static_separated as [Hs1 Hs2].
      assert (Hy : exists y, blobs_dir = x ++ y \/ data = x ++ y) by (destruct Hx as [H|H]; apply is_prefix_spec in H as [y Hy]; eauto).
      destruct Hy as [y Hy]. split; [|split].
      - destruct Hy as [Hy|Hy]; [pose proof (blobs_dir_visible static_root_visible) as Hv|pose proof static_data_visible as Hv];
          rewrite Hy in Hv; exact (visible_app_l _ _ Hv).
      - intros [c ->]. destruct Hy as [Hy|Hy].
        + apply (f_equal (@List.length comp)) in Hy. rewrite !app_length in Hy. simpl in Hy. lia.
        + rewrite (proj2 (is_prefix_spec blobs_dir data)) in Hs2; [discriminate|]. exists ([c] ++ y). rewrite Hy, <- app_assoc. reflexivity.
      - intros segs Hne ->. rewrite <- app_assoc in Hy. destruct Hy as [Hy|Hy].
        + rewrite (proj2 (is_prefix_spec data blobs_dir)) in Hs1; [discriminate|]. eauto.
        + rewrite <- (app_nil_r data) in Hy at 1. apply app_inv_head in Hy. destruct segs; [congruence|discriminate].
    Qed.

    Lemma init_dirs_good : Forall good_dir init_dirs.
    Proof. apply Forall_forall. intros d Hd. destruct (prefix_dir_good d (init_dirs_prefix d Hd)) as (Hv & Hnb & _). split; assumption. Qed.

    Lemma parent_loc : forall segs, segs <> [] -> parent (data ++ segs) = data ++ removelast segs.
    Proof. intros segs H. apply removelast_app. exact H. Qed.

    (* d is a directory on the way from data to loc: a strict ancestor of loc, strictly below data; sync_paths makes them *)
    Definition anc (d loc : path) : Prop := exists a b, a <> [] /\ b <> [] /\ d = data ++ a /\ loc = d ++ b.
    Definition anc_dirs (loc : path) : list path := dirs_between data (skipn (List.length data) (parent loc)).

    Lemma anc_dirs_spec : forall loc d, good_loc loc -> (In d (anc_dirs loc) <-> anc d loc).
    Proof.
      intros loc d [Hv (segs & Hne & ->)]. unfold anc_dirs. rewrite (parent_loc segs Hne), skipn_app_exact. split.
      - intro Hd. apply dirs_between_spec in Hd as (a & b & Ha & Hr & ->).
        exists a, (b ++ [last segs (CName [])]). split; [exact Ha|]. split; [destruct b; discriminate|]. split; [reflexivity|].
        rewrite <- app_assoc, (app_assoc a), <- Hr, <- app_removelast_last; auto.
      - intros (a & b & Ha & Hb & -> & Hloc). rewrite <- app_assoc in Hloc. apply app_inv_head in Hloc as ->.
        destruct (exists_last Hb) as (b' & c & ->). apply dirs_between_spec. exists a, b'. split; [exact Ha|]. split; [|reflexivity].
        rewrite app_assoc. apply removelast_last.
    Qed.

    Lemma anc_good_loc : forall d loc, anc d loc -> visible loc = true -> good_loc d.
    Proof. intros d loc (a & b & Ha & _ & Hd & ->) Hv. split; [exact (visible_app_l _ _ Hv)|eauto]. Qed.

    Lemma anc_parent : forall loc, good_loc loc -> parent loc = data \/ anc (parent loc) loc.
    Proof.
      intros loc [_ (segs & Hne & ->)]. destruct (exists_last Hne) as (a & c & ->). rewrite app_assoc, parent_snoc.
      destruct a as [|c' a']; [left; apply app_nil_r|right]. exists (c' :: a'), [c]. repeat split; discriminate.
    Qed.

    Lemma sync_dirs_good : forall loc, good_loc loc -> Forall good_dir (anc_dirs loc).
    Proof.
      intros loc Hl. apply Forall_forall. intros d Hd. apply (anc_dirs_spec loc d Hl) in Hd.
      pose proof (anc_good_loc d loc Hd (good_loc_visible loc Hl)) as Hgd.
      split; [exact (good_loc_visible d Hgd)|]. exact (good_loc_not_in_blobs d static_separated Hgd).
    Qed.

    Lemma start_ok : forall fs pid cnt o, pc_ok fs pid cnt (start root data o).
    Proof. intros fs pid cnt o. destruct o; simpl; auto using init_dirs_good. Qed.

    (* one system call: the guarantee, and what the process then knows about its files *)
    Definition step_local (p : proc) (fs : fsys) (r : fsys * proc) : Prop :=
      G p (snd r) fs (fst r) /\ pc_ok (fst r) (p_pid (snd r)) (p_cnt (snd r)) (p_pc (snd r)).

    Lemma local_same : forall fs p p', pc_ok fs (p_pid p') (p_cnt p') (p_pc p') -> step_local p fs (fs, p').
    Proof. intros fs p p' H. split; [|exact H]. intro x. apply ChSame. reflexivity. Qed.

    Lemma local_or_fail : forall fs p r p',
      (forall fs', r = Some fs' -> step_local p fs (fs', p')) -> step_local p fs (or_fail p fs r p').
    Proof. intros fs p [fs'|] p' H; simpl; [auto|]. apply local_same. exact I. Qed.

    Lemma G_upd : forall p p' fs y v, chg p p' fs (upd fs y v) y -> G p p' fs (upd fs y v).
    Proof. intros p p' fs y v Hy x. destruct (path_eq_dec x y) as [->|E]; [exact Hy|]. apply ChSame. apply upd_other. exact E. Qed.

    (* a write to the current temporary of p *)
    Lemma local_tmp : forall fs p c y v, busy c = true ->
      pc_ok (upd fs (tmp_of y (p_pid p) (p_cnt p)) v) (p_pid p) (p_cnt p) c ->
      step_local p fs (upd fs (tmp_of y (p_pid p) (p_cnt p)) v, set_pc p c).
    Proof.
      intros fs p c y v Hb Hc. split; [|exact Hc]. apply G_upd. apply ChTmp with (parent y) (last_name y); auto.
    Qed.

    (* renaming a temporary to the visible name it stands for *)
    Lemma install_some {fs y pid cnt v fs'} : visible y = true -> fs (tmp_of y pid cnt) = Some v ->
      do_replace fs (tmp_of y pid cnt) y = Some fs' ->
      fs y <> Some NDir /\ fs' y = Some v /\ fs' (tmp_of y pid cnt) = None /\
      forall x, x <> y -> x <> tmp_of y pid cnt -> fs' x = fs x.
    Proof.
      intros Hv Ht E. apply do_replace_some in E as (nd & E1 & Hd & _ & ->). rewrite Ht in E1. injection E1 as <-.
      split; [exact Hd|]. split; [|split; [apply upd_same|]].
      - rewrite upd_other; [apply upd_same|]. apply tmp_of_neq_visible. exact Hv.
      - intros x E1 E2. rewrite upd_other by exact E2. apply upd_other. exact E1.
    Qed.

    Lemma local_install {fs p p' y v} : visible y = true -> fs (tmp_of y (p_pid p) (p_cnt p)) = Some v ->
      (forall fs', do_replace fs (tmp_of y (p_pid p) (p_cnt p)) y = Some fs' ->
         chg p p' fs fs' y /\ pc_ok fs' (p_pid p') (p_cnt p') (p_pc p')) ->
      step_local p fs (or_fail p fs (do_replace fs (tmp_of y (p_pid p) (p_cnt p)) y) p').
    Proof.
      intros Hv Ht H. apply local_or_fail. intros fs' E. destruct (H fs' E) as [Hy Hok]. split; [|exact Hok].
      destruct (install_some Hv Ht E) as (_ & _ & Hn & Hfr). intro x. cbn [fst snd].
      destruct (path_eq_dec x y) as [->|E1]; [exact Hy|]. destruct (path_eq_dec x (tmp_of y (p_pid p) (p_cnt p))) as [->|E2].
      - apply ChTmp with (parent y) (last_name y); auto.
      - apply ChSame. apply Hfr; assumption.
    Qed.

    (* the metadata file is installed after the blob: the key is complete *)
    Lemma sm_replace_complete {fs pid cnt k fs'} : pc_ok fs pid cnt (PSM_replace k) -> good_key k = true ->
      do_replace fs (tmp_of (meta k) pid cnt) (meta k) = Some fs' -> complete fs' k.
    Proof.
      intros [Hbl Hc] Hk E. pose proof static_root_visible as Hvr.
      destruct (install_some (meta_visible k Hvr) Hc E) as (_ & Hy & _ & Hfr).
      split; [exact Hy|]. rewrite Hfr; [exact Hbl|apply blob_not_meta; exact Hk|]. apply tmp_of_neq_visible. exact (blob_visible k Hvr).
    Qed.

    Lemma pstep_ids : forall fs p n, p_pid (snd (pstep fs p n)) = p_pid p /\ p_cnt p <= p_cnt (snd (pstep fs p n)) /\
      (busy (p_pc p) = true -> p_cnt (snd (pstep fs p n)) = p_cnt p -> busy (p_pc (snd (pstep fs p n))) = true).
    Proof.
      intros fs [pid cnt c todo outs] n. unfold LocalProgs.pstep, or_fail. cbn [p_pc p_pid p_cnt].
      destruct c; split_reads; cbn; (split; [reflexivity|]); (split; [auto|]); intros Hb Hc.
      (* the new program counter is busy, or the old one is not, or p_cnt has gone up *)
      all: first [reflexivity|discriminate Hb|destruct (Nat.neq_succ_diag_l _ Hc)].
    Qed.

    (* a step that leaves the file system alone and whose next program counter needs no new fact *)
    Ltac pure_step := split_reads; apply local_same; cbn in *; intuition auto.

    Lemma pstep_local : forall fs p n, BlobInv fs -> proc_ok fs p -> step_local p fs (pstep fs p n).
    Proof.
      intros fs [pid cnt c todo outs] n HB (Hc & Hg & _). pose proof static_root_visible as Hvr.
      unfold LocalProgs.pstep, work, tmpb, tmpm, tmpl in *. cbn [p_pc p_pid p_cnt p_todo p_outs] in *.
      destruct c as [|dirs next|k|k rest|k|k|k|k rest|k|k|items|loc k items|loc k items|loc k items|k|k|k|k|k m|loc|loc|loc|];
        cbn [pc_ok current app] in Hc, Hg.
      (* PSB_close, PSM_close, PSP_check, PHas, PF_stat_blob, PF_read_blob, PP_stat_dir, PP_stat_loc, PP_realpath, PFailed *)
      5, 9, 12, 15-16, 19-23: pure_step.
      - (* PIdle *) destruct todo as [|o r]; [pure_step|]. apply local_same, start_ok.
      - (* PMkdirs: the directory made is the good directory d *)
        destruct Hc as [Hd Hn]. destruct dirs as [|d r]; [apply local_same; destruct next; apply Hn|].
        inversion Hd as [|d' r' [Hv Hnb] Hr]; subst. destruct (do_mkdir fs d) as [fs'|] eqn:E; [|pure_step].
        apply do_mkdir_some in E as (E1 & _ & ->). split; [|exact (conj Hr Hn)].
        apply G_upd, ChMkdir with r next; auto using upd_same.
      - (* PSB_create: the temporary is empty *)
        apply local_or_fail. intros fs' E. apply do_create_some in E as [_ ->].
        apply local_tmp; [reflexivity|]. exists []. rewrite upd_same. auto.
      - (* PSB_write: what the temporary holds and what is left make up enc k *)
        destruct Hc as (c & Hc1 & Hc2). destruct rest as [|a r'].
        { rewrite app_nil_r in Hc2. subst c. pure_step. }
        apply local_or_fail. intros fs' E. apply do_append_some in E as (c' & E1 & ->).
        apply local_tmp; [reflexivity|]. eexists. rewrite upd_same. split; [reflexivity|].
        rewrite <- app_assoc, firstn_skipn. congruence.
      - (* PSB_replace: the blob is installed *)
        refine (local_install (blob_visible k Hvr) Hc _). intros fs' E.
        destruct (install_some (blob_visible k Hvr) Hc E) as (_ & Hy & _).
        split; [|exact Hy]. exact (ChBlob _ _ _ _ _ k (blob_visible k Hvr) (Forall_inv Hg) eq_refl Hy).
      - (* PSM_create: as PSB_create; the blob is no temporary and stays *)
        apply local_or_fail. intros fs' E. apply do_create_some in E as [_ ->].
        apply local_tmp; [reflexivity|]. split.
        + rewrite upd_other; [exact Hc|]. apply tmp_of_neq_visible. exact (blob_visible k Hvr).
        + exists []. rewrite upd_same. auto.
      - (* PSM_write: as PSB_write *)
        destruct Hc as (Hbl & c & Hc1 & Hc2). destruct rest as [|a r'].
        { rewrite app_nil_r in Hc2. subst c. pure_step. }
        apply local_or_fail. intros fs' E. apply do_append_some in E as (c' & E1 & ->).
        apply local_tmp; [reflexivity|]. split.
        + rewrite upd_other; [exact Hbl|]. apply tmp_of_neq_visible. exact (blob_visible k Hvr).
        + eexists. rewrite upd_same. split; [reflexivity|]. rewrite <- app_assoc, firstn_skipn. congruence.
      - (* PSM_replace: the metadata file is installed, its blob is there *)
        refine (local_install (meta_visible k Hvr) (proj2 Hc) _). intros fs' E.
        destruct (sm_replace_complete Hc (Forall_inv Hg) E) as [Hm Hb].
        split; [|exact I]. exact (ChMeta _ _ _ _ _ k (meta_visible k Hvr) (Forall_inv Hg) eq_refl Hm Hb).
      - (* PSP_next: the directories that makedirs is given are good *)
        destruct items as [|[loc k] items]; [pure_step|]. apply local_same.
        destruct (fs_exists fs (parent loc)); cbn; auto. split; [|auto].
        apply sync_dirs_good. apply (Forall_inv Hg loc k). left. reflexivity.
      - (* PSP_symlink: the temporary is the link *)
        apply local_or_fail. intros fs' E. apply do_symlink_some in E as (_ & _ & ->).
        apply local_tmp; [reflexivity|]. apply upd_same.
      - (* PSP_replace: the link is installed, at a good location *)
        destruct (Forall_inv Hg loc k (or_introl eq_refl)) as [Hk Hloc]. pose proof (good_loc_visible loc Hloc) as Hv.
        refine (local_install Hv Hc _). intros fs' E. destruct (install_some Hv Hc E) as (Hd & Hy & _).
        split; [|exact I]. apply ChLink with k items; auto.
      - (* PF_stat_meta: by BlobInv a metadata file that exists is the complete one *)
        destruct (fs_exists fs (meta k)) eqn:E; [|pure_step]. apply local_same.
        unfold fs_exists in E. destruct (fs (meta k)) as [nd|] eqn:Em; [|discriminate].
        destruct (HB k (Forall_inv Hg)) as [_ HB2]. destruct (HB2 nd Em) as [-> _]. exact Em.
      - (* PF_read_meta: by BlobInv its blob is there too *)
        unfold fs_read. rewrite Hc. apply local_same.
        split; [reflexivity|]. destruct (HB k (Forall_inv Hg)) as [_ HB2]. apply (HB2 _ Hc).
    Qed.

    Lemma todo_ok_mono : forall todo (have have' : bytes -> Prop),
      (forall k, good_key k = true -> have k -> have' k) -> Forall good_op todo -> todo_ok have todo -> todo_ok have' todo.
    Proof.
      induction todo as [|o r IH]; intros have have' Hm Hg H; simpl in *; [exact I|].
      inversion Hg as [|o' r' Ho Hr]; subst.
      destruct o as [|k|items|k|k|loc]; try (eapply IH; eassumption).
      - eapply IH; [|exact Hr|exact H]. intros k' Hk' [E|E]; auto.
      - destruct H as [H1 H2]. split; [|eapply IH; eassumption].
        intros loc k Hin. apply Hm; [apply (Ho loc k Hin)|eapply H1; exact Hin].
    Qed.

    (* how the work of a process changes in one step: not at all; the operation in progress is finished (a store only when its
       key [have]s a value); sync_paths is done with one item; everything is dropped because a call failed *)
    Inductive advance (have : bytes -> Prop) : list opcall -> list opcall -> Prop :=
    | AdvSame : forall w, advance have w w
    | AdvDone : forall o w, match o with OpStore k => have k | _ => True end -> advance have (o :: w) w
    | AdvItem : forall loc k items w, advance have (OpSync ((loc, k) :: items) :: w) (OpSync items :: w)
    | AdvFail : forall w, advance have w [].

    Lemma advance_good : forall have w w', advance have w w' -> Forall good_op w -> Forall good_op w'.
    Proof.
      intros have w w' [w1|o w1 _|loc k items w1|w1] H; auto; inversion H as [|? ? Ho Hw]; subst; auto.
      constructor; [|exact Hw]. intros l' k' Hin. apply Ho. right. exact Hin.
    Qed.

    Lemma advance_todo_ok : forall have w w', advance have w w' -> Forall good_op w -> todo_ok have w -> todo_ok have w'.
    Proof.
      intros have w w' [w1|o w1 Ho|loc k items w1|w1] Hg H; simpl in *; auto.
      - destruct o; auto; [|apply H]. revert H. apply todo_ok_mono; [|exact (Forall_inv_tail Hg)]. intros k' _ [->|E]; auto.
      - destruct H as [H1 H2]. split; eauto.
    Qed.

    (* what a step does to the rest of the process record: the work advances, the results stay good *)
    Lemma pstep_record : forall fs p n, proc_ok fs p ->
      advance (complete (fst (pstep fs p n))) (work p) (work (snd (pstep fs p n))) /\
      Forall good_result (p_outs (snd (pstep fs p n))).
    Proof.
      intros fs [pid cnt c todo outs] n (Hc & Hg & Ho).
      assert (Hr : forall r, good_result r -> Forall good_result (outs ++ [r])) by (intros r Hr; apply Forall_app; auto).
      unfold LocalProgs.pstep, or_fail, work, tmpm. cbn [p_pc p_pid p_cnt p_todo p_outs] in *.
      destruct c as [|dirs next|k|k rest|k|k|k|k rest|k|k|items|loc k items|loc k items|loc k items|k|k|k|k|k m|loc|loc|loc|];
        try solve [split_reads; cbn; (split; [auto using advance|auto; apply Hr; exact I])].
      - (* PIdle *) destruct todo as [|[]]; cbn; auto using advance.
      - (* PSM_replace: the store is done when the key is complete *)
        destruct (do_replace fs (tmp_of (meta k) pid cnt) (meta k)) as [fs'|] eqn:E; cbn; [|auto using advance].
        split; [|apply Hr; exact I]. apply AdvDone. exact (sm_replace_complete Hc (Forall_inv Hg) E).
      - (* PF_read_blob: fetch_blob returns what pc_ok says the two files hold *)
        destruct Hc as [Hm Hb]. unfold fs_read. rewrite Hb. cbn. split; [apply AdvDone; exact I|]. apply Hr. split; [exact Hm|reflexivity].
    Qed.

    Definition step_res (p : proc) (fs : fsys) (r : fsys * proc) : Prop :=
      G p (snd r) fs (fst r) /\ proc_ok (fst r) (snd r).

    Lemma pstep_sound : forall fs p n, BlobInv fs -> proc_ok fs p -> step_res p fs (pstep fs p n).
    Proof.
      intros fs p n HB Hok. destruct (pstep_local fs p n HB Hok) as [HG Hc]. destruct (pstep_record fs p n Hok) as [Hw Ho].
      split; [exact HG|]. split; [exact Hc|]. split; [exact (advance_good _ _ _ Hw (proj1 (proj2 Hok)))|exact Ho].
    Qed.

    Definition Inv (s : sys) : Prop :=
      BlobInv (s_fs s) /\ LinkInv (s_fs s) /\ NoDup (map p_pid (s_procs s)) /\ Forall (proc_ok (s_fs s)) (s_procs s).

    Lemma Inv_init : forall s, init_ok s -> Inv s.
    Proof.
      intros s (_ & HB & HL & _ & _ & _ & Hnd & Hp). repeat (split; [assumption|]).
      apply Forall_forall. intros p Hin. destruct (Hp p Hin) as (H1 & _ & H3 & H4).
      unfold proc_ok, work. rewrite H1, H3. simpl. auto.
    Qed.

    Lemma Inv_proc : forall s i p, Inv s -> nth_error (s_procs s) i = Some p -> proc_ok (s_fs s) p.
    Proof. intros s i p (_ & _ & _ & HF) Hn. rewrite Forall_forall in HF. apply HF. eapply nth_error_In. exact Hn. Qed.

    Lemma Inv_pstep : forall s i p n, Inv s -> nth_error (s_procs s) i = Some p ->
      step_res p (s_fs s) (pstep (s_fs s) p n).
    Proof. intros s i p n HI Hn. apply pstep_sound; [apply HI|eapply Inv_proc; eassumption]. Qed.

    (* process p becomes p' and the file system fs', within the guarantee of p *)
    Lemma Inv_replace : forall s i p fs' p', Inv s -> nth_error (s_procs s) i = Some p -> p_pid p' = p_pid p ->
      G p p' (s_fs s) fs' -> proc_ok fs' p' -> Inv (Sys fs' (replace_nth i p' (s_procs s))).
    Proof.
      intros s i p fs' p' (HB & HL & Hnd & HF) Hn Hpid HG Hok'. destruct (replace_nth_split _ i p p' _ Hn) as (l1 & l2 & E & ->).
      rewrite E in *. split; [exact (G_BlobInv _ _ _ _ HG HB)|]. split; [exact (G_LinkInv _ _ _ _ HG HL)|]. cbn [s_fs s_procs].
      rewrite map_app in *. cbn [map] in *. rewrite Hpid. split; [exact Hnd|].
      (* the other processes have other pids: p does not touch their temporaries *)
      apply NoDup_remove_2 in Hnd. rewrite <- map_app, in_map_iff in Hnd. rewrite Forall_forall in HF.
      assert (Hoth : forall q, In q l1 \/ In q l2 -> proc_ok fs' q).
      { intros q Hq. destruct (HF q) as (Hc & Hg & Ho); [apply in_or_app; simpl; tauto|]. repeat split; try assumption.
        apply (pc_ok_stable _ _ _ _ HG); [| |exact Hc].
        - intro y. apply (G_tmp_other _ _ _ _ HG). intro Eq. apply Hnd. exists q. split; [exact Eq|apply in_or_app; exact Hq].
        - apply Forall_app in Hg. apply Hg. }
      apply Forall_forall. intros q Hq. apply in_app_iff in Hq as [Hq|[<-|Hq]]; auto.
    Qed.

    Lemma Inv_step : forall s s', Inv s -> sys_step s s' -> Inv s'.
    Proof.
      intros s s' HI Hstep. destruct Hstep as [s i p n Hn|s i p Hn|s p Hpc _ Houts Htodo Hfresh].
      - destruct (Inv_pstep s i p n HI Hn) as (HG & Hok'). exact (Inv_replace s i p _ _ HI Hn (proj1 (pstep_ids _ p n)) HG Hok').
      - apply (Inv_replace s i p _ (fail p) HI Hn eq_refl); [intro x; apply ChSame; reflexivity|].
        destruct (Inv_proc s i p HI Hn) as (_ & _ & Ho). split; [exact I|]. split; [constructor|exact Ho].
      - destruct HI as (HB & HL & Hnd & HF). repeat (split; [assumption|]). cbn [s_fs s_procs]. split.
        + rewrite map_app. pose proof (Add_app (p_pid p) (map p_pid (s_procs s)) []) as HA. rewrite app_nil_r in HA.
          apply (NoDup_Add HA). split; [exact Hnd|]. rewrite in_map_iff. intros (q & E & Hq). exact (Hfresh q Hq E).
        + apply Forall_app. split; [exact HF|]. constructor; [|constructor].
          unfold proc_ok, work. rewrite Hpc, Houts. simpl. auto.
    Qed.

    Lemma Inv_reachable : forall s0 s, Inv s0 -> reachable s0 s -> Inv s.
    Proof. intros s0 s H0 Hr. induction Hr as [|s s' _ IH Hstep]; [exact H0|]. eapply Inv_step; eassumption. Qed.

    Lemma reachable_trans : forall s0 s s', reachable s0 s -> reachable s s' -> reachable s0 s'.
    Proof. intros s0 s s' H1 H2. induction H2 as [|s1 s2 _ IH Hstep]; [exact H1|]. eapply ReachStep; eassumption. Qed.

    Lemma complete_reachable : forall s s' k, Inv s -> reachable s s' -> good_key k = true ->
      complete (s_fs s) k -> complete (s_fs s') k.
    Proof.
      intros s s' k HI Hr Hk Hc. induction Hr as [|s1 s2 Hr1 IH Hstep]; [exact Hc|].
      destruct Hstep as [s1 i p n Hn| |]; cbn [s_fs]; try exact IH.
      destruct (Inv_pstep s1 i p n (Inv_reachable s s1 HI Hr1) Hn) as (HG & _). exact (G_complete_mono _ _ _ _ HG k Hk IH).
    Qed.

    (* a reader fails only where it reads a file that it has just seen; pc_ok says that the file is still there *)
    Lemma reader_step_ok : forall fs p n, proc_ok fs p -> reader_pc (p_pc p) = true ->
      p_pc (snd (pstep fs p n)) <> PFailed.
    Proof.
      intros fs [pid cnt c todo outs] n [Hc _] Hrd. unfold LocalProgs.pstep, fs_read. cbn [p_pc] in *.
      destruct c; try discriminate Hrd; cbn [pc_ok] in Hc; try solve [split_reads; discriminate].
      - (* PF_read_meta *) rewrite Hc. discriminate.
      - (* PF_read_blob *) rewrite (proj2 Hc). discriminate.
    Qed.

    (* the evaluation discipline: what a process has still to commit is complete, or it will have stored it by then *)
    Definition disc_ok (fs : fsys) (p : proc) : Prop := todo_ok (fun k => complete fs k) (work p).

    Lemma disc_stable : forall p p' fs fs' q, G p p' fs fs' -> proc_ok fs q -> disc_ok fs q -> disc_ok fs' q.
    Proof.
      intros p p' fs fs' q HG (_ & Hg & _). apply todo_ok_mono; [|exact Hg]. intros k Hk. exact (G_complete_mono _ _ _ _ HG k Hk).
    Qed.

    Lemma reach_length : forall s0 s, reachable s0 s -> List.length (s_procs s0) <= List.length (s_procs s).
    Proof.
      intros s0 s Hr. induction Hr as [|s s' _ IH Hstep]; [lia|].
      destruct Hstep; cbn [s_procs]; rewrite ?replace_nth_length, ?app_length; lia.
    Qed.

    (* executions in which no process starts: induction over the steps and crashes *)
    Lemma nospawn_ind : forall s0 (P : sys -> Prop), P s0 ->
      (forall s i p n, reachable_nospawn s0 s -> P s -> nth_error (s_procs s) i = Some p ->
         P (Sys (fst (pstep (s_fs s) p n)) (replace_nth i (snd (pstep (s_fs s) p n)) (s_procs s)))) ->
      (forall s i p, reachable_nospawn s0 s -> P s -> nth_error (s_procs s) i = Some p ->
         P (Sys (s_fs s) (replace_nth i (fail p) (s_procs s)))) ->
      forall s, reachable_nospawn s0 s -> P s.
    Proof.
      intros s0 P H0 Hp Hc s [Hr Hlen]. induction Hr as [|s s' Hr IH Hstep]; [exact H0|]. pose proof (reach_length _ _ Hr) as Hle.
      destruct Hstep; cbn [s_procs] in Hlen; rewrite ?replace_nth_length, ?app_length in Hlen; [apply Hp|apply Hc|simpl in Hlen; lia];
        auto; split; assumption.
    Qed.

    Definition InvL (s : sys) : Prop :=
      Inv s /\ LinkLive (s_fs s) /\ Forall (disc_ok (s_fs s)) (s_procs s).

    Lemma InvL_reachable : forall s0 s, InvL s0 -> reachable_nospawn s0 s -> InvL s.
    Proof.
      intros s0 s H0. apply nospawn_ind; [exact H0| |].
      - intros s1 i p n _ (HI & HLL & HD) Hn. split; [exact (Inv_step _ _ HI (StepProc _ _ _ _ s1 i p n Hn))|]. cbn [s_fs s_procs].
        destruct (Inv_pstep s1 i p n HI Hn) as (HG & _). pose proof (Inv_proc s1 i p HI Hn) as Hok.
        destruct HI as (_ & _ & _ & HF). rewrite Forall_forall in HD, HF. pose proof (HD p (nth_error_In _ _ Hn)) as Hdp. split.
        + (* a link is old, or committed by p: its key was complete before the step *)
          intros x t Hv Hx.
          assert (Hk : exists k, good_key k = true /\ t = blob k /\ complete (s_fs s1) k).
          { destruct (G_at_link _ _ _ _ HG x t Hv Hx) as [H|(k & items & Hk & Hpc & Ht)]; [exact (HLL x t Hv H)|].
            unfold disc_ok, work in Hdp. rewrite Hpc in Hdp. exists k. split; [exact Hk|]. split; [exact Ht|]. apply (proj1 Hdp x). left. reflexivity. }
          destruct Hk as (k & Hk & Ht & Hc). exists k. split; [exact Hk|]. split; [exact Ht|]. eapply G_complete_mono; eassumption.
        + apply Forall_forall. intros q Hq. apply In_replace_nth in Hq as [->|Hq]; [|eapply disc_stable; eauto].
          apply (advance_todo_ok _ _ _ (proj1 (pstep_record _ p n Hok)) (proj1 (proj2 Hok))). eapply disc_stable; eassumption.
      - intros s1 i p _ (HI & HLL & HD) Hn. split; [exact (Inv_step _ _ HI (StepCrash _ _ _ _ s1 i p Hn))|]. split; [exact HLL|].
        apply Forall_forall. intros q Hq. apply In_replace_nth in Hq as [->|Hq]; [exact I|]. rewrite Forall_forall in HD. auto.
    Qed.

    Section Writers.
      Variable s0 : sys.
      Hypothesis H0 : init_ok s0.
      Hypothesis HW0 : writers_ok root data s0.

      Definition L (loc : path) : Prop := commits s0 loc.
      Definition items_in_L (items : list (path * bytes)) : Prop := forall loc k, In (loc, k) items -> L loc.
      Definition todo_in_L (todo : list opcall) : Prop := forall items, In (OpSync items) todo -> items_in_L items.
      (* the directories that sync_paths may have to make: strict ancestors, strictly below data, of a location of L *)
      Definition dirzone (d : path) : Prop := exists loc, L loc /\ anc d loc.

      Lemma L_good : forall loc, L loc -> good_loc loc.
      Proof.
        intros loc (p & items & k & Hp & Hi & Hl). destruct H0 as (_ & _ & _ & _ & _ & _ & _ & Hps).
        destruct (Hps p Hp) as (_ & _ & _ & Hg). rewrite Forall_forall in Hg.
        destruct (Hg _ Hi loc k Hl) as (_ & Hv & Hs). split; assumption.
      Qed.

      Lemma dirzone_not_L : forall d, dirzone d -> L d -> False.
      Proof.
        intros d (loc & Hl & a & b & Ha & Hb & Hd & Hloc) HLd. destruct HW0 as (_ & _ & Hpf & _).
        assert (E : d = loc) by (apply Hpf; [exact HLd|exact Hl|apply is_prefix_spec; exists b; exact Hloc]).
        rewrite E, <- (app_nil_r loc) in Hloc at 1. apply app_inv_head in Hloc. congruence.
      Qed.

      Lemma dirzone_good_loc : forall d, dirzone d -> good_loc d.
      Proof. intros d (loc & Hl & Hd). exact (anc_good_loc d loc Hd (good_loc_visible loc (L_good loc Hl))). Qed.

      (* makedirs on the way to tgt: the directories still to make continue one that exists, and end at tgt *)
      Definition mk_ok (fs : fsys) (dirs : list path) (tgt : path) : Prop :=
        exists prev, fs prev = Some NDir /\ visible prev = true /\ chain prev dirs /\ last dirs prev = tgt /\ Forall dirzone dirs.

      Lemma mk_ok_cons : forall fs d r tgt, mk_ok fs (d :: r) tgt ->
        dirzone d /\ fs (parent d) = Some NDir /\ forall fs', fs' d = Some NDir -> mk_ok fs' r tgt.
      Proof.
        intros fs d r tgt (prev & W1 & _ & [W3 W3'] & W4 & W5). split; [exact (Forall_inv W5)|]. split; [rewrite W3; exact W1|].
        intros fs' Hd. exists d. rewrite last_cons_default in W4. repeat split; auto using (Forall_inv_tail W5).
        exact (good_loc_visible d (dirzone_good_loc d (Forall_inv W5))).
      Qed.

      (* what a writer relies on: its locations are in L, and the directories it needs exist *)
      Definition w_pc (fs : fsys) (c : pc) : Prop :=
        match c with
        | PMkdirs dirs PIdle => Forall (fun d => fs d = Some NDir) dirs
        | PMkdirs dirs (PSP_check loc _ items) => mk_ok fs dirs (parent loc) /\ L loc /\ items_in_L items
        | PMkdirs _ _ => False
        | PSP_next items => items_in_L items
        | PSP_check loc _ items | PSP_symlink loc _ items | PSP_replace loc _ items =>
          fs (parent loc) = Some NDir /\ L loc /\ items_in_L items
        | _ => True
        end.

      Definition w_ok (fs : fsys) (p : proc) : Prop := w_pc fs (p_pc p) /\ todo_in_L (p_todo p).

      Definition FsW (fs : fsys) : Prop :=
        (forall d, In d init_dirs -> fs d = Some NDir) /\ fs data = Some NDir /\
        (forall d, dirzone d -> fs d = None \/ fs d = Some NDir) /\
        (forall loc, L loc -> fs loc = None \/ exists t, fs loc = Some (NLink t)).

      (* temporaries are private and never reused: each belongs to an earlier call of its owner, or to the current one *)
      Definition owns (pid n : nat) (q : proc) : Prop :=
        p_pid q = pid /\ (n < p_cnt q \/ (n = p_cnt q /\ busy (p_pc q) = true)).
      Definition TmpInv (s : sys) : Prop :=
        forall X b pid n, s_fs s (X ++ [CTmp b pid n]) <> None -> Exists (owns pid n) (s_procs s).

      Definition W (s : sys) : Prop := Inv s /\ TmpInv s /\ FsW (s_fs s) /\ Forall (w_ok (s_fs s)) (s_procs s).

      Lemma W_init : W s0.
      Proof.
        pose proof H0 as (_ & _ & _ & Hnt & _ & _ & _ & Hps). split; [apply Inv_init; exact H0|]. split; [|split].
        - intros X b pid n Hx. destruct Hx. apply Hnt. exists (CTmp b pid n). split; [apply in_elt|reflexivity].
        - destruct HW0 as (H1 & H2 & _ & H4 & H5). split; [exact H1|]. split; [exact H2|]. split; [|exact H5].
          intros d (loc & Hl & a & b & Ha & Hb & Hd & Hloc). exact (H4 loc d a b Hl Ha Hb Hd Hloc).
        - apply Forall_forall. intros p Hp. destruct (Hps p Hp) as (Hpc & _). unfold w_ok. rewrite Hpc. split; [exact I|].
          intros items Hi loc k Hl. exists p, items, k. auto.
      Qed.

      Lemma FsW_step : forall p p' fs fs', BlobInv fs -> G p p' fs fs' -> w_pc fs (p_pc p) -> FsW fs -> FsW fs'.
      Proof.
        intros p p' fs fs' HB HG Hw (F1 & F2 & F3 & F4).
        pose proof (fun d => G_dir_mono p p' fs fs' HG d HB) as Hmono. split; [|split; [|split]].
        - intros d Hd. apply Hmono; [|exact (F1 d Hd)]. pose proof init_dirs_good as Hg. rewrite Forall_forall in Hg. apply (Hg d Hd).
        - exact (Hmono data static_data_visible F2).
        - intros d Hd. destruct (G_loc p p' fs fs' HG d (dirzone_good_loc d Hd)) as [E|[(_ & E & _)|(_ & k & items & Hpc & _)]].
          + rewrite E. exact (F3 d Hd).
          + right. exact E.
          + rewrite Hpc in Hw. destruct (dirzone_not_L d Hd). apply Hw.
        - intros loc Hl. destruct (G_loc p p' fs fs' HG loc (L_good loc Hl)) as [E|[(Hn & _ & r & next & Hpc)|(_ & k & items & _ & E)]].
          + rewrite E. exact (F4 loc Hl).
          + rewrite Hpc in Hw. simpl in Hw. destruct next; try contradiction.
            * apply Forall_inv in Hw. congruence.
            * destruct (dirzone_not_L loc (proj1 (mk_ok_cons _ _ _ _ (proj1 Hw))) Hl).
          + right. eauto.
      Qed.

      Lemma todo_in_L_nil : todo_in_L [].
      Proof. intros items []. Qed.

      Lemma w_pc_stable : forall p p' fs fs' pid cnt c, BlobInv fs -> G p p' fs fs' -> pc_ok fs pid cnt c ->
        w_pc fs c -> w_pc fs' c.
      Proof.
        intros p p' fs fs' pid cnt c HB HG Hc Hw.
        pose proof (fun x => G_dir_mono p p' fs fs' HG x HB) as Hd.
        assert (Hpl : forall loc, L loc -> fs (parent loc) = Some NDir -> fs' (parent loc) = Some NDir).
        { intros loc Hl. apply Hd. apply parent_visible. exact (good_loc_visible loc (L_good loc Hl)). }
        destruct c as [|dirs next| | | | | | | | | |loc k items|loc k items|loc k items| | | | | | | | |]; simpl in *; auto;
          try (split; [apply Hpl|]; tauto).
        destruct Hc as [Hgd _]. destruct next; try contradiction.
        - rewrite Forall_forall in *. intros d Hin. apply Hd; [apply (Hgd d Hin)|apply Hw; exact Hin].
        - destruct Hw as ((prev & W1 & W2 & W3) & Hw). split; [exists prev; auto|exact Hw].
      Qed.

      Lemma parent_loc_dir : forall fs loc, FsW fs -> L loc -> fs_exists fs (parent loc) = true -> fs (parent loc) = Some NDir.
      Proof.
        intros fs loc (_ & F2 & F3 & _) Hl He. destruct (anc_parent loc (L_good loc Hl)) as [->|Hd]; [exact F2|].
        destruct (F3 (parent loc)) as [Hn|Hn]; [exists loc; auto| |exact Hn]. unfold fs_exists in He. rewrite Hn in He. discriminate.
      Qed.

      Lemma sync_mk_ok : forall fs loc, FsW fs -> L loc -> mk_ok fs (anc_dirs loc) (parent loc).
      Proof.
        intros fs loc (_ & F2 & _) Hl. exists data. split; [exact F2|]. split; [exact static_data_visible|].
        split; [apply dirs_between_chain|]. split.
        - unfold anc_dirs. rewrite dirs_between_last. destruct (L_good loc Hl) as [_ (segs & Hne & ->)].
          rewrite (parent_loc segs Hne), skipn_app_exact. reflexivity.
        - apply Forall_forall. intros d Hd. exists loc. split; [exact Hl|]. exact (proj1 (anc_dirs_spec loc d (L_good loc Hl)) Hd).
      Qed.

      Lemma w_pc_mkdir : forall fs d r loc k items, w_pc fs (PMkdirs (d :: r) (PSP_check loc k items)) -> fs d = Some NDir ->
        w_pc fs (PMkdirs r (PSP_check loc k items)).
      Proof. intros fs d r loc k items [Hm Hl] Hd. split; [|exact Hl]. apply (mk_ok_cons _ _ _ _ Hm). exact Hd. Qed.

      (* w_pc of the program counter of p, taken in the file system after the step (w_pc_stable), gives w_pc of the next one *)
      Lemma w_step : forall fs p n, FsW fs -> todo_in_L (p_todo p) -> w_pc (fst (pstep fs p n)) (p_pc p) ->
        w_ok (fst (pstep fs p n)) (snd (pstep fs p n)).
      Proof.
        intros fs [pid cnt c todo outs] n HF Htd. pose proof todo_in_L_nil as Hnil.
        unfold w_ok, LocalProgs.pstep, or_fail, tmpb, tmpm, tmpl. cbn [p_pc p_pid p_cnt p_todo p_outs] in *.
        destruct c as [|dirs next|k|k rest|k|k|k|k rest|k|k|items|loc k items|loc k items|loc k items|k|k|k|k|k m|loc|loc|loc|].
        (* PIdle, PMkdirs and PSP_next apart, the next program counter relies on nothing, or on part of what this one does *)
        3-10, 12-23: split_reads; cbn [fst snd fail set_pc bump finish p_pc p_todo w_pc] in *; auto; tauto.
        - (* PIdle: the operation that starts is the head of a todo list that is in L *)
          destruct todo as [|o r]; [auto|]. intros _. cbn [fst snd p_pc p_todo].
          assert (Hr : todo_in_L r) by (intros items Hi; apply Htd; right; exact Hi).
          split; [|exact Hr]. destruct o; simpl; try exact I.
          + (* OpInit *) apply Forall_forall, HF.
          + (* OpSync *) apply Htd. left. reflexivity.
        - (* PMkdirs *) destruct dirs as [|d r].
          + (* none is left: the chain has ended at the parent of loc *)
            destruct next; try contradiction; cbn [fst snd set_pc finish p_pc p_todo w_pc]; [auto|].
            intros ((prev & W1 & _ & _ & W4 & _) & Hl). simpl in W4. subst prev. tauto.
          + destruct next; try contradiction.
            * (* of __init__: they all exist *)
              split_reads; cbn [fst snd set_pc fail p_pc p_todo w_pc]; intro Hw; apply Forall_inv_tail in Hw; auto.
            * (* of sync_paths: d is a directory after the step, the chain continues from it *)
              destruct (do_mkdir fs d) as [fs'|] eqn:E; [|destruct (fs_isdir fs d) eqn:Ei];
                cbn [fst snd set_pc fail p_pc p_todo]; intro Hw.
              -- (* d is made *) split; [apply (w_pc_mkdir _ _ _ _ _ _ Hw)|exact Htd].
                 apply do_mkdir_some in E as (_ & _ & ->). apply upd_same.
              -- (* d exists: FsW allows nothing but a directory there *) split; [apply (w_pc_mkdir _ _ _ _ _ _ Hw)|exact Htd].
                 destruct (mk_ok_cons _ _ _ _ (proj1 Hw)) as (Hdz & _). destruct HF as (_ & _ & F3 & _).
                 destruct (F3 d Hdz) as [Hn|Hn]; [|exact Hn]. unfold fs_isdir in Ei. rewrite Hn in Ei. discriminate.
              -- (* the call fails *) exact (conj I Hnil).
        - (* PSP_next: the parent of loc is a directory, or the directories to make lead to it *)
          destruct items as [|[loc k] items]; cbn [fst snd set_pc finish p_pc p_todo w_pc]; [auto|]. intros Hw.
          assert (Hl : L loc) by (apply (Hw loc k); left; reflexivity).
          assert (Hi : items_in_L items) by (intros l' k' Hin; apply (Hw l' k'); right; exact Hin).
          destruct (fs_exists fs (parent loc)) eqn:Ee; cbn [w_pc]; (split; [|exact Htd]).
          + split; [exact (parent_loc_dir fs loc HF Hl Ee)|auto].
          + split; [exact (sync_mk_ok fs loc HF Hl)|auto].
      Qed.

      Lemma owns_step : forall fs p n pid m, owns pid m p -> owns pid m (snd (pstep fs p n)).
      Proof.
        intros fs p n pid m [Hp Hc]. destruct (pstep_ids fs p n) as (Hpid & Hle & Hb).
        split; [congruence|]. destruct Hc as [Hc|[-> Hc]]; [left; lia|].
        destruct (Nat.eq_dec (p_cnt (snd (pstep fs p n))) (p_cnt p)) as [E|E]; [right; auto|left; lia].
      Qed.

      Lemma W_reachable : forall s, reachable_nospawn s0 s -> W s.
      Proof.
        apply nospawn_ind; [exact W_init| |].
        - intros s i p n _ (HI & HT & HF & HWp) Hn. split; [exact (Inv_step _ _ HI (StepProc _ _ _ _ s i p n Hn))|].
          destruct (Inv_pstep s i p n HI Hn) as (HG & _). pose proof (nth_error_In _ _ Hn) as Hin.
          destruct HI as (HB & _ & _ & HFp). rewrite Forall_forall in HWp, HFp. cbn [s_fs s_procs].
          (* what the processes of s rely on survives the step, p at its old program counter included *)
          assert (Hold : forall q, In q (s_procs s) -> w_ok (fst (pstep (s_fs s) p n)) q).
          { intros q Hq. destruct (HWp q Hq) as [Hw Htd]. destruct (HFp q Hq) as [Hc _]. split; [|exact Htd].
            eapply w_pc_stable; eassumption. }
          split; [|split].
          + intros X b pid m Hx. cbn [s_fs s_procs] in *. apply (Exists_replace_nth _ _ _ i p _ Hn).
            destruct (G_tmp _ _ _ _ HG X b pid m) as [E|(-> & -> & [E|[Hc Hb]])]; [|contradiction|].
            * rewrite E in Hx. right. split; [exact (HT _ _ _ _ Hx)|apply owns_step].
            * left. split; [apply pstep_ids|auto].
          + eapply FsW_step; try eassumption. apply (HWp p Hin).
          + apply Forall_forall. intros q Hq. apply In_replace_nth in Hq as [->|Hq]; [|auto].
            apply w_step; [exact HF|apply (HWp p Hin)|apply (Hold p Hin)].
        - intros s i p _ (HI & HT & HF & HWp) Hn. split; [exact (Inv_step _ _ HI (StepCrash _ _ _ _ s i p Hn))|]. split; [|split; [exact HF|]].
          + intros X b pid m Hx. apply (Exists_replace_nth _ _ _ i p _ Hn). right. split; [exact (HT _ _ _ _ Hx)|].
            intros [Hp [Hc|[Hc _]]]; split; auto.
          + apply Forall_forall. intros q Hq. apply In_replace_nth in Hq as [->|Hq]; [|rewrite Forall_forall in HWp; auto].
            split; [exact I|apply todo_in_L_nil].
      Qed.

      Lemma tmp_absent : forall s p y, W s -> In p (s_procs s) -> busy (p_pc p) = false ->
        s_fs s (tmp_of y (p_pid p) (p_cnt p)) = None.
      Proof.
        intros s p y ((_ & _ & Hnd & _) & HT & _) Hp Hb. destruct (s_fs s (tmp_of y (p_pid p) (p_cnt p))) eqn:E; [|reflexivity].
        destruct (proj1 (Exists_exists _ _) (HT (parent y) (last_name y) (p_pid p) (p_cnt p) ltac:(unfold tmp_of in E; congruence)))
          as (q & Hq & Hqp & Hqc).
        rewrite (NoDup_map_injective _ _ p_pid _ q p Hnd Hq Hp Hqp) in Hqc. destruct Hqc as [Hqc|[_ Hqc]]; [lia|congruence].
      Qed.

      Lemma step_no_fail : forall s i p n, W s -> nth_error (s_procs s) i = Some p -> p_pc p <> PFailed ->
        p_pc (snd (pstep (s_fs s) p n)) <> PFailed.
      Proof.
        intros s i p n HWs Hn Hnf. pose proof HWs as (HI & _ & HF & HWp).
        pose proof (Inv_proc s i p HI Hn) as Hok. pose proof (nth_error_In _ _ Hn) as Hin.
        assert (Hw : w_pc (s_fs s) (p_pc p)) by (rewrite Forall_forall in HWp; apply HWp; exact Hin).
        assert (Hbd : s_fs s blobs_dir = Some NDir) by (apply HF; unfold init_dirs; rewrite !in_app_iff; simpl; auto).
        assert (HB : BlobInv (s_fs s)) by apply HI.
        pose proof (fun y Hb => tmp_absent s p y HWs Hin Hb) as Habs. destruct HF as (_ & _ & F3 & F4).
        destruct (reader_pc (p_pc p)) eqn:Hrd; [apply reader_step_ok; assumption|]. destruct Hok as (Hc & Hg & _).
        destruct p as [pid cnt c todo outs]. unfold LocalProgs.pstep, work, tmpb, tmpm, tmpl in *. cbn [p_pc p_pid p_cnt p_todo] in *.
        destruct c as [|dirs next|k|k rest|k|k|k|k rest|k|k|items|loc k items|loc k items|loc k items|k|k|k|k|k m|loc|loc|loc|];
          try discriminate Hrd; cbn [pc_ok w_pc busy current app] in *.
        (* the readers are gone; PSB_close, PSM_close, PSP_next, PSP_check make no call that can fail *)
        5, 9, 11-12: split_reads; discriminate.
        - (* PIdle *) destruct todo as [|[]]; discriminate.
        - (* PMkdirs: the parent of the next directory exists, and so may the directory itself *)
          destruct dirs as [|d r]; [destruct next; try contradiction; discriminate|].
          unfold do_mkdir. destruct next; try contradiction.
          + (* of __init__ *) apply Forall_inv in Hw. rewrite Hw, (isdir_of_dir _ _ Hw). discriminate.
          + (* of sync_paths *) destruct (mk_ok_cons _ _ _ _ (proj1 Hw)) as (Hdz & Hp & _). destruct (F3 d Hdz) as [Hd|Hd]; rewrite Hd.
            * rewrite (isdir_of_dir _ _ Hp). discriminate.
            * rewrite (isdir_of_dir _ _ Hd). discriminate.
        - (* PSB_create: the temporary is fresh *)
          rewrite do_create_eq; [discriminate|apply Habs; reflexivity|]. rewrite parent_tmp_of, parent_blob. exact Hbd.
        - (* PSB_write: the temporary is a file *)
          destruct rest; [discriminate|]. destruct Hc as (c & Hc & _). unfold do_append. rewrite Hc. discriminate.
        - (* PSB_replace: by BlobInv no directory is in the way *)
          rewrite (do_replace_eq _ _ _ _ Hc); [discriminate| |rewrite parent_blob; exact Hbd].
          intro E. destruct (HB k (Forall_inv Hg)) as [HB1 _]. discriminate (HB1 _ E).
        - (* PSM_create *) rewrite do_create_eq; [discriminate|apply Habs; reflexivity|]. rewrite parent_tmp_of, parent_meta. exact Hbd.
        - (* PSM_write *) destruct rest; [discriminate|]. destruct Hc as (_ & c & Hc & _). unfold do_append. rewrite Hc. discriminate.
        - (* PSM_replace *) rewrite (do_replace_eq _ _ _ _ (proj2 Hc)); [discriminate| |rewrite parent_meta; exact Hbd].
          intro E. destruct (HB k (Forall_inv Hg)) as [_ HB2]. destruct (HB2 _ E) as [[=] _].
        - (* PSP_symlink: the temporary is fresh, the parent was made *)
          rewrite do_symlink_eq; [discriminate|apply Habs; reflexivity|]. rewrite parent_tmp_of. apply Hw.
        - (* PSP_replace: a location of L holds no directory *)
          destruct Hw as (Hp & Hl & _). rewrite (do_replace_eq _ _ _ _ Hc); [discriminate| |exact Hp].
          destruct (F4 loc Hl) as [E|[t E]]; rewrite E; discriminate.
        - (* PFailed *) destruct (Hnf eq_refl).
      Qed.
    End Writers.
  End Store.

  Lemma init_static : forall s, init_ok s -> static.
  Proof. intros s H. split; [|split]; apply H. Qed.

  Lemma reach_Inv : forall s0 s, init_ok s0 -> reachable s0 s -> Inv s.
  Proof. intros s0 s H0. apply (Inv_reachable (init_static s0 H0)). apply Inv_init. exact H0. Qed.

  Lemma crash_safe : forall s0 s, init_ok s0 -> reachable s0 s ->
    BlobInv (s_fs s) /\ LinkInv (s_fs s) /\ (forall p r, In p (s_procs s) -> In r (p_outs p) -> good_result r).
  Proof.
    intros s0 s H0 Hr. destruct (reach_Inv s0 s H0 Hr) as (HB & HL & _ & HF). split; [exact HB|]. split; [exact HL|].
    intros p r Hp. rewrite Forall_forall in HF. destruct (HF p Hp) as (_ & _ & H3). rewrite Forall_forall in H3. apply H3.
  Qed.

  Lemma stored_survive : forall s0 s s' k, init_ok s0 -> reachable s0 s -> reachable s s' ->
    good_key k = true -> s_fs s (meta k) <> None -> complete (s_fs s') k.
  Proof.
    intros s0 s s' k H0 Hr Hr' Hk Hm. pose proof (reach_Inv s0 s H0 Hr) as HI.
    apply (complete_reachable (init_static s0 H0) s s' k HI Hr' Hk). destruct HI as (HB & _). destruct (HB k Hk) as [_ HB2].
    destruct (s_fs s (meta k)) as [nd|] eqn:E; [|congruence]. destruct (HB2 nd eq_refl) as [-> H2]. split; assumption.
  Qed.

  Lemma link_old_or_new : forall s0 s s' loc t, init_ok s0 -> reachable s0 s -> sys_step s s' ->
    visible loc = true -> s_fs s loc = Some (NLink t) ->
    s_fs s' loc = Some (NLink t) \/
    exists p k, In p (s_procs s) /\ swapping p loc k /\ s_fs s' loc = Some (NLink (blob k)).
  Proof.
    intros s0 s s' loc t H0 Hr Hstep Hv Hl. pose proof (reach_Inv s0 s H0 Hr) as HI.
    destruct Hstep as [s i p n Hn| |]; cbn [s_fs s_procs]; auto.
    destruct (Inv_pstep (init_static s0 H0) s i p n HI Hn) as (HG & _).
    destruct (G_at_vis _ _ _ _ HG loc (proj1 HI) Hv) as [H|(k & items & Hpc & _ & H)]; [eauto|left; congruence|].
    right. exists p, k. split; [eapply nth_error_In; exact Hn|]. split; [exists items; exact Hpc|exact H].
  Qed.

  Lemma link_never_lost : forall s0 s s' loc t, init_ok s0 -> reachable s0 s -> reachable s s' ->
    visible loc = true -> s_fs s loc = Some (NLink t) ->
    exists k, good_key k = true /\ s_fs s' loc = Some (NLink (blob k)).
  Proof.
    intros s0 s s' loc t H0 Hr Hr' Hv Hl.
    assert (H : exists t', s_fs s' loc = Some (NLink t')).
    { induction Hr' as [|s1 s2 Hr1 [t' IH] Hstep]; [eauto|].
      destruct (link_old_or_new s0 s1 s2 loc t' H0 (reachable_trans _ _ _ Hr Hr1) Hstep Hv IH) as [H|(p & k & _ & _ & H)]; eauto. }
    destruct H as [t' H]. destruct (reach_Inv s0 s' H0 (reachable_trans _ _ _ Hr Hr')) as (_ & HL & _).
    destruct (HL loc t' Hv H) as (k & Hk & ->). eauto.
  Qed.

  Lemma readers_never_fail : forall s0 s i p n, init_ok s0 -> reachable s0 s ->
    nth_error (s_procs s) i = Some p -> reader_pc (p_pc p) = true ->
    p_pc (snd (pstep (s_fs s) p n)) <> PFailed.
  Proof.
    intros s0 s i p n H0 Hr Hn Hrd. apply reader_step_ok; [|exact Hrd]. exact (Inv_proc s i p (reach_Inv s0 s H0 Hr) Hn).
  Qed.

  Lemma commit_installs : forall s0 s (s' : fsys) i p n loc k items, init_ok s0 -> reachable s0 s ->
    nth_error (s_procs s) i = Some p -> p_pc p = PSP_replace loc k items ->
    s' = fst (pstep (s_fs s) p n) -> p_pc (snd (pstep (s_fs s) p n)) <> PFailed ->
    s' loc = Some (NLink (blob k)).
  Proof.
    intros s0 s s' i p n loc k items H0 Hr Hn Hpc -> Hnf.
    destruct (Inv_proc s i p (reach_Inv s0 s H0 Hr) Hn) as (Hc & Hg & _). unfold work in Hg. rewrite Hpc in Hc, Hg.
    revert Hnf. unfold LocalProgs.pstep, tmpl. rewrite Hpc.
    destruct (do_replace (s_fs s) (tmp_of loc (p_pid p) (p_cnt p)) loc) as [fs'|] eqn:E; simpl; [intros _|congruence].
    destruct (Forall_inv Hg loc k (or_introl eq_refl)) as (_ & Hv & _).
    apply (install_some Hv Hc E).
  Qed.

  Lemma links_live : forall s0 s, init_ok s0 -> LinkLive (s_fs s0) -> disciplined root enc menc s0 ->
    reachable_nospawn s0 s -> LinkLive (s_fs s).
  Proof.
    intros s0 s H0 HLL Hd Hr. apply (InvL_reachable (init_static s0 H0) s0 s); [|exact Hr].
    split; [apply Inv_init; exact H0|]. split; [exact HLL|]. apply Forall_forall. intros p Hp.
    destruct H0 as (_ & _ & _ & _ & _ & _ & _ & Hps). destruct (Hps p Hp) as (Hpc & _).
    unfold disc_ok, work. rewrite Hpc. apply Hd. exact Hp.
  Qed.

  Lemma writers_never_fail : forall s0 s i p n, init_ok s0 -> writers_ok root data s0 -> reachable_nospawn s0 s ->
    nth_error (s_procs s) i = Some p -> p_pc p <> PFailed ->
    p_pc (snd (pstep (s_fs s) p n)) <> PFailed.
  Proof.
    intros s0 s i p n H0 HW0 Hr. apply (step_no_fail s0 H0). exact (W_reachable (init_static s0 H0) s0 H0 HW0 s Hr).
  Qed.
End Proofs.
(* non-vacuity: two processes that initialise, store and commit on a store whose directories exist *)
Definition ex_root : path := [CName (bs "I")].
Definition ex_data : path := [CName (bs "D")].
Definition ex_key : bytes := bs "aa01".
Definition ex_loc : path := ex_data ++ [CName (bs "p")].
Definition ex_fs : fsys := fun x =>
  if path_eqb x [] || path_eqb x ex_root || path_eqb x ex_data || path_eqb x (blobs_dir ex_root) then Some NDir else None.
Definition ex_todo : list opcall := [OpInit; OpStore ex_key; OpSync [(ex_loc, ex_key)]].
Definition ex_sys : sys := Sys ex_fs [Proc 1 0 PIdle ex_todo []; Proc 2 0 PIdle ex_todo []].

Lemma ex_fs_dir : forall x n, ex_fs x = Some n -> n = NDir /\ visible x = true /\ List.length x <= 2.
Proof.
  intros x n H. unfold ex_fs in H.
  destruct (path_eqb x [] || path_eqb x ex_root || path_eqb x ex_data || path_eqb x (blobs_dir ex_root)) eqn:E;
    [|discriminate].
  split; [congruence|]. repeat (apply orb_true_iff in E as [E|E]); apply path_eqb_eq in E; subst x; split; try reflexivity; simpl; lia.
Qed.

Lemma example_system_init :
  init_ok ex_root ex_data (fun k => k) (fun k => k) ex_sys /\ LinkLive ex_root (fun k => k) (fun k => k) (s_fs ex_sys) /\
  disciplined ex_root (fun k => k) (fun k => k) ex_sys /\ List.length (s_procs ex_sys) = 2 /\
  (forall p, In p (s_procs ex_sys) -> List.length (p_todo p) >= 3).
Proof.
  assert (Hgo : Forall (good_op ex_data) ex_todo).
  { constructor; [exact I|]. constructor; [reflexivity|]. constructor; [|constructor].
    intros loc k [H|[]]. inversion H; subst. split; [reflexivity|]. split; [reflexivity|].
    exists [CName (bs "p")]. split; [discriminate|reflexivity]. }
  split; [|split; [|split; [|split]]].
  - split; [split; reflexivity|]. split.
    { intros k _. split; intros n H; simpl in H; apply ex_fs_dir in H as (_ & _ & H); simpl in H; lia. }
    split. { intros loc t _ H. apply ex_fs_dir in H as [H _]. discriminate. }
    split.
    { intros x (c & Hin & Hc). simpl. destruct (ex_fs x) as [n|] eqn:E; [|reflexivity].
      apply ex_fs_dir in E as (_ & E & _). unfold visible in E. rewrite forallb_forall in E. rewrite (E c Hin) in Hc. discriminate. }
    split; [reflexivity|]. split; [reflexivity|]. split.
    { simpl. repeat constructor; simpl; intuition discriminate. }
    intros p [Hp|[Hp|[]]]; subst p; simpl; auto.
  - intros loc t _ H. simpl in H. apply ex_fs_dir in H as [H _]. discriminate.
  - intros p [Hp|[Hp|[]]]; subst p; simpl; (split; [|exact I]); intros loc k [H|[]]; inversion H; left; reflexivity.
  - reflexivity.
  - intros p [Hp|[Hp|[]]]; subst p; simpl; lia.
Qed.

(* the same system also satisfies the hypothesis of writers_never_fail *)
Lemma ex_commits : forall loc, commits ex_sys loc -> loc = ex_loc.
Proof.
  intros loc (p & items & k & Hp & Hi & Hl).
  assert (Ht : p_todo p = ex_todo) by (destruct Hp as [Hp|[Hp|[]]]; subst p; reflexivity).
  rewrite Ht in Hi. destruct Hi as [Hi|[Hi|[Hi|[]]]]; try discriminate.
  inversion Hi; subst items. destruct Hl as [Hl|[]]. congruence.
Qed.

Lemma example_writers_ok : init_ok ex_root ex_data (fun k => k) (fun k => k) ex_sys /\ writers_ok ex_root ex_data ex_sys /\
  exists loc, commits ex_sys loc.
Proof.
  split; [|split].
  - destruct example_system_init as [H _]. exact H.
  - split; [|split; [|split; [|split]]].
    + intros d Hd. simpl in Hd. destruct Hd as [Hd|[Hd|[Hd|[]]]]; subst d; vm_compute; reflexivity.
    + vm_compute. reflexivity.
    + intros loc loc' H1 H2 _. apply ex_commits in H1. apply ex_commits in H2. congruence.
    + intros loc d a b Hl Ha Hb Hd Hloc. exfalso. apply ex_commits in Hl. subst loc d.
      apply (f_equal (@List.length comp)) in Hloc. rewrite !app_length in Hloc. simpl in Hloc.
      destruct a; [congruence|]. destruct b; [congruence|]. simpl in Hloc. lia.
    + intros loc Hl. apply ex_commits in Hl. subst loc. left. vm_compute. reflexivity.
  - exists ex_loc. exists (Proc 1 0 PIdle ex_todo []), [(ex_loc, ex_key)], ex_key. simpl. tauto.
Qed.
