(* Call sites.  The three steps that the analysis treats as a call of a callee g - g(...), a by-name mention of g,
   dds.keep(p, g, ...) ([site_callee] of SoundnessDefs.v) - do the same thing up to the path they register
   ([site_path]): what the content analysis and the symbolic analysis do at a site is stated once
   ([cana_site], [sana_site]), and programs have an induction principle whose step cases are "call site / apply / load"
   ([prog_site_ind], [fn_site_ind]).  A [caller] is an analysed node with its executed body; [analysed_to c pre acc]: its
   analysis has reached the step after [pre].  Nothing here assumes a universe or anything about dds.load (loads are threaded as the analyses thread them).
   Builds on SoundnessDefs.v only.  Used wherever a proof goes through the steps of a body: SoundnessA.v and Soundness.v
   (no loads), SoundnessLoadA.v and SoundnessLoad.v (with loads). *)
From Coq Require Import List Ascii String ZArith NArith Bool Lia.
From DDS Require Import Base.Bytes Base.BytesFacts Extracted.ConstHash L0_Hash.PyVal L0_Hash.DdsHash L1_Args.ArgCtx
     L3_Sig.Program L3_Sig.Sig L3_Sig.SigTree L3_Sig.SigTreeProofs
     L4_Eval.Stages L4_Eval.DdsEval L4_Eval.EvalSpec L4_Eval.EvalProofs L4_Eval.SoundnessDefs.
Import ListNotations.

(* the path a step registers on top of what its callee registers *)
Definition site_path (s : step) : option bytes := match s with SKeep _ _ p _ _ _ => Some p | _ => None end.
(* a by-name mention that is not applied is analysed, not executed *)
Definition site_runs (s : step) : bool := match s with SRef _ _ false => false | _ => true end.

(* the path under which the value of the callee is kept *)
Definition site_kpath (s : step) (g : fn) : option bytes :=
  match site_path s with Some p => Some p | None => fn_annot g end.

Definition srupd_opt (o : option bytes) (sg : dg) (R : sresolved) : sresolved :=
  match o with Some p => srupdate p sg R | None => R end.

Lemma srlookup_srupdate : forall p q s R, srlookup p (srupdate q s R) = if bytes_eqb p q then Some s else srlookup p R.
Proof.
  intros p q s R. induction R as [|[k v] t IH]; cbn [srupdate srlookup]; [reflexivity|].
  destruct (bytes_eqb_spec q k) as [->|Hqk]; cbn [srlookup]; [destruct (bytes_eqb p k); reflexivity|].
  rewrite IH. destruct (bytes_eqb_spec p k) as [->|_]; [|reflexivity]. destruct (bytes_eqb_spec k q); [congruence|reflexivity].
Qed.
Lemma srlookup_srupdate_same : forall p s R, srlookup p (srupdate p s R) = Some s.
Proof. intros p s R. rewrite srlookup_srupdate, bytes_eqb_refl. reflexivity. Qed.
Lemma srlookup_srupdate_other : forall p q s R, p <> q -> srlookup p (srupdate q s R) = srlookup p R.
Proof. intros p q s R Hne. rewrite srlookup_srupdate. destruct (bytes_eqb_spec p q); [contradiction|reflexivity]. Qed.

(* induction over programs: the executed body of a function is the first one; steps by what the analysis does *)
Lemma prog_site_ind : forall (P : fn -> Prop) (P0 : bodies -> Prop) (P1 : body -> Prop) (P2 : steps -> Prop) (P3 : step -> Prop),
  (forall g, P0 (fn_bodies g) -> (forall b, first_body g = Some b -> P1 b) -> P g) ->
  P0 BNil -> (forall b r, P1 b -> P0 r -> P0 (BCons b r)) ->
  (forall vars exts sts, P2 sts -> P1 (Body vars exts sts)) ->
  P2 SNil -> (forall s r, P3 s -> P2 r -> P2 (SCons s r)) ->
  (forall s g, site_callee s = Some g -> P g -> P3 s) ->
  (forall g, P g -> P3 (SApply g)) ->
  (forall p, P3 (SLoad p)) ->
  (forall f, P f) /\ (forall b, P0 b) /\ (forall b, P1 b) /\ (forall s, P2 s) /\ (forall s, P3 s).
Proof.
  intros P P0 P1 P2 P3 Hfn Hbn Hbc Hbody Hnil Hcons Hsite Happ Hload.
  destruct (prog_mutind P (fun bds => P0 bds /\ match bds with BCons b _ => P1 b | BNil => True end) P1 P2 P3) as (A & B & C); auto.
  - intros n t r l p a c bds [Hb Hb1]. apply Hfn; [exact Hb|]. intros b E. unfold first_body in E. cbn [fn_bodies] in E.
    destruct bds; [discriminate E|]. injection E as <-. exact Hb1.
  - intros b Hb r [Hr _]. auto.
  - intros l e g Hg a. exact (Hsite (SCall l e g a) g eq_refl Hg).
  - intros l g Hg ex. exact (Hsite (SRef l g ex) g eq_refl Hg).
  - intros l e p g Hg pos kw. exact (Hsite (SKeep l e p g pos kw) g eq_refl Hg).
  - split; [exact A|]. split; [intros b; exact (proj1 (B b))|exact C].
Qed.

Lemma fn_site_ind : forall (P : fn -> Prop) (P2 : steps -> Prop) (P3 : step -> Prop),
  (forall g, (forall vars exts sts, first_body g = Some (Body vars exts sts) -> P2 sts) -> P g) ->
  P2 SNil -> (forall s r, P3 s -> P2 r -> P2 (SCons s r)) ->
  (forall s g, site_callee s = Some g -> P g -> P3 s) ->
  (forall g, P g -> P3 (SApply g)) ->
  (forall p, P3 (SLoad p)) ->
  (forall f, P f) /\ (forall s, P2 s) /\ (forall s, P3 s).
Proof.
  intros P P2 P3 Hfn Hnil Hcons Hsite Happ Hload.
  destruct (prog_site_ind P (fun _ => True) (fun b => match b with Body _ _ sts => P2 sts end) P2 P3) as (A & _ & _ & B); auto.
  intros g _ Hb. apply Hfn. intros vars exts sts E. exact (Hb _ E).
Qed.

Lemma fn_callees_ind : forall P : fn -> Prop, (forall f, Forall P (callees f) -> P f) -> forall f, P f.
Proof.
  intros P H.
  refine (proj1 (fn_site_ind P (fun sts => Forall P (callees_l (list_of_steps sts))) (fun s => Forall P (step_callee s)) _ _ _ _ _ _)).
  - intros g IH. apply H. unfold callees, first_steps.
    destruct (first_body g) as [[vars exts sts]|]; [exact (IH vars exts sts eq_refl)|constructor].
  - constructor.
  - intros s r Hs Hr. apply Forall_app. split; assumption.
  - intros s g Hg Hp. destruct s; try discriminate Hg; injection Hg as <-; repeat constructor; exact Hp.
  - intros g Hp. repeat constructor. exact Hp.
  - constructor.
Qed.

Lemma first_body_bodies : forall {g b}, first_body g = Some b -> exists r, fn_bodies g = BCons b r.
Proof. intros g b E. unfold first_body in E. destruct (fn_bodies g) as [|b0 r]; [discriminate E|]. injection E as <-. exists r. reflexivity. Qed.

Lemma site_has_end : forall {s g}, site_callee s = Some g -> exists k, site_end s = Some k.
Proof. intros [| | | |] g H; try discriminate H; eexists; reflexivity. Qed.

Lemma site_callee_in : forall {s g}, site_callee s = Some g -> In g (step_callee s).
Proof. intros [| | | |] g H; try discriminate H; injection H as <-; left; reflexivity. Qed.

Lemma first_steps_of : forall {f vars exts sts}, first_body f = Some (Body vars exts sts) ->
  first_steps f = Some (list_of_steps sts).
Proof. intros f vars exts sts H. unfold first_steps. rewrite H. reflexivity. Qed.

Lemma skel_step_site : forall {cs cs' s s' g}, skel_step cs s = skel_step cs' s' -> site_callee s = Some g ->
  exists g', site_callee s' = Some g' /\ site_path s' = site_path s /\ site_runs s' = site_runs s.
Proof.
  intros cs cs' [l e g0 a|l g0 ex|g0|l e p g0 pos kw|p] [l' e' g' a'|l' g' ex'|g'|l' e' p' g' pos' kw'|p'] g Hsk Hg;
    try discriminate Hsk; try discriminate Hg; exists g'; injection Hsk; intros; subst; repeat split.
Qed.

Lemma skel_step_acallee_len : forall cs cs' s s', skel_step cs s = skel_step cs' s' ->
  List.length (acallee s) = List.length (acallee s').
Proof. intros cs cs' [| | | |] [| | | |] H; try discriminate H; reflexivity. Qed.

Lemma map_comp_eq : forall {A B C : Type} (f : A -> B) (g : B -> C) l l',
  map f l = map f l' -> map (fun x => g (f x)) l = map (fun x => g (f x)) l'.
Proof. intros A B C f g l l' E. rewrite <- (map_map f g l), <- (map_map f g l'), E. reflexivity. Qed.

Lemma site_pv_skel : forall {cs cs' s s' g g'} en,
  skel_step cs s = skel_step cs' s' -> site_callee s = Some g -> site_callee s' = Some g' ->
  fn_params g = fn_params g' -> site_pv s en = site_pv s' en.
Proof.
  intros cs cs' [l e g0 args|l g0 ex|g0|l e p g0 pos kw|p] [l' e' g1 args'|l' g1 ex'|g1|l' e' p' g1 pos' kw'|p'] g g' en Hsk Hg Hg' Hp;
    try discriminate Hg; try discriminate Hg'; try discriminate Hsk;
    injection Hg as ->; injection Hg' as ->; cbn [site_pv]; rewrite <- Hp.
  - injection Hsk as ->. reflexivity.
  - reflexivity.
  - injection Hsk as _ Hpos Hkw.
    f_equal; [exact (map_comp_eq fst (eval_expr en) _ _ Hpos)|].
    exact (map_comp_eq (fun nk => (fst nk, fst (snd nk))) (fun ne => (fst ne, eval_expr en (snd ne))) _ _ Hkw).
Qed.

Lemma skel_lsteps_snoc : forall cs pre s pre' s', skel_lsteps cs (pre ++ [s]) = skel_lsteps cs (pre' ++ [s']) ->
  skel_lsteps cs pre = skel_lsteps cs pre' /\ skel_step (cs ++ cs_of pre) s = skel_step (cs ++ cs_of pre') s'.
Proof. intros cs pre s pre' s' H. rewrite !skel_lsteps_app in H. exact (app_inj_tail _ _ _ _ H). Qed.

Lemma cana_site : forall {hv hl s g k lines a exts vs ch l R ch1 l1 R1},
  site_callee s = Some g -> site_end s = Some k ->
  cana_step hv hl s lines a exts vs (ch, l, R) = inr (ch1, l1, R1) ->
  exists ph named c R',
    clines hl (firstn k lines) = inr ph /\ site_named hv s = inr named /\
    cana hv hl g (named, Some (Content ph a l ch exts vs)) R = inr (c, R') /\ ch1 = ch ++ [c] /\ l1 = l /\
    R1 = srupd_opt (site_path s) (enc c) R'.
Proof.
  intros hv hl s g k lines a exts vs ch l R ch1 l1 R1 Hg Hk Hs.
  assert (E : cana_step hv hl s lines a exts vs (ch, l, R) =
              ccall_g hv hl g (clines hl (firstn k lines)) (fun ph => Content ph a l ch exts vs) (site_named hv s)
                      (fun c R' => (ch ++ [c], l, srupd_opt (site_path s) (enc c) R')) R).
  { destruct s; try discriminate Hg; injection Hg as <-; injection Hk as <-; reflexivity. }
  rewrite E in Hs. unfold ccall_g in Hs. destruct (clines hl _) as [e|ph]; [discriminate Hs|].
  destruct (site_named hv s) as [e|named]; [discriminate Hs|].
  destruct (cana hv hl g _ R) as [e|[c R']] eqn:Hc; [discriminate Hs|]. injection Hs as <- <- <-.
  exists ph, named, c, R'. auto 7.
Qed.

Lemma cana_body_inv : forall {hv hl vars exts sts lines A R c R1},
  cana_body hv hl (Body vars exts sts) lines A R = inr (c, R1) ->
  exists a vs ch loads lh, cargs A = inr a /\ cvars hv vars = inr vs /\
    cana_steps hv hl sts lines a exts vs ([], [], R) = inr (ch, loads, R1) /\ clines hl lines = inr lh /\
    c = Content lh a loads ch exts vs.
Proof.
  intros hv hl vars exts sts lines A R c R1 H. rewrite cana_body_eq in H.
  destruct (cargs A) as [e|a]; [discriminate H|]. destruct (cvars hv vars) as [e|vs]; [discriminate H|].
  destruct (cana_steps hv hl sts lines a exts vs ([], [], R)) as [e|[[ch loads] R']] eqn:Es; [discriminate H|].
  destruct (clines hl lines) as [e|lh]; [discriminate H|]. injection H as <- <-.
  exists a, vs, ch, loads, lh. repeat split. exact Es.
Qed.

(* the content of the executed body inside the content of its node: the node itself, or for a class its first method *)
Definition body_content (is_class : bool) (c : content) : option content :=
  if is_class then match c with Content _ _ _ (c1 :: _) _ _ => Some c1 | _ => None end else Some c.

(* the analysis of a node through the steps of its executed body; the resolved references afterwards are those after the
   body with the path of a data function registered, or for a class those after the other methods *)
Lemma cana_fn_steps : forall {hv hl g A R c R1 vars exts sts}, cana hv hl g A R = inr (c, R1) ->
  first_body g = Some (Body vars exts sts) ->
  exists a vs ch loads lh Ra, cargs A = inr a /\ cvars hv vars = inr vs /\
    cana_steps hv hl sts (fn_lines g) a exts vs ([], [], R) = inr (ch, loads, Ra) /\
    body_content (fn_is_class g) c = Some (Content lh a loads ch exts vs) /\
    if fn_is_class g
    then exists r cs, fn_bodies g = BCons (Body vars exts sts) r /\ cana_bodies hv hl r (fn_lines g) A Ra = inr (cs, R1)
    else R1 = srupd_opt (fn_annot g) (enc c) Ra.
Proof.
  intros hv hl [name tag raises lines params annot is_class bds] A R c R1 vars exts sts Hc Eb. unfold first_body in Eb.
  cbn [fn_bodies fn_lines fn_is_class fn_annot] in *. destruct bds as [|b r]; [discriminate Eb|]. injection Eb as ->.
  rewrite cana_eq in Hc. destruct (cana_body hv hl (Body vars exts sts) lines A R) as [e|[c1 Ra]] eqn:Hb.
  { destruct is_class; [rewrite cana_bodies_cons, Hb in Hc|]; discriminate Hc. }
  destruct (cana_body_inv Hb) as (a & vs & ch & loads & lh & Ha & Hv & Hs & _ & ->). exists a, vs, ch, loads, lh, Ra.
  repeat (split; [assumption|]). destruct is_class.
  - rewrite cana_bodies_cons, Hb in Hc. destruct (cana_bodies hv hl r lines A Ra) as [e|[cs Rb]] eqn:Er; [discriminate Hc|].
    destruct (clines hl lines); [discriminate Hc|]. injection Hc as <- <-. split; [reflexivity|]. exists r, cs. auto.
  - injection Hc as <- <-. split; reflexivity.
Qed.

Lemma firstn_In : forall {A : Type} n (l : list A) x, In x (firstn n l) -> In x l.
Proof. intros A n l x H. rewrite <- (firstn_skipn n l). apply in_or_app. left. exact H. Qed.

(* the analysis appends one child per analysed interaction *)
Lemma cana_step_ext : forall {hv hl s lines a exts vs ch l R ch1 l1 R1},
  cana_step hv hl s lines a exts vs (ch, l, R) = inr (ch1, l1, R1) ->
  exists new, ch1 = ch ++ new /\ List.length new = List.length (acallee s).
Proof.
  intros hv hl s lines a exts vs ch l R ch1 l1 R1 Hs. destruct (site_callee s) as [g|] eqn:Hg.
  - destruct (site_has_end Hg) as [k Hk]. destruct (cana_site Hg Hk Hs) as (_ & _ & c & _ & _ & _ & _ & -> & _).
    exists [c]. split; [reflexivity|]. destruct s; try discriminate Hg; reflexivity.
  - exists []. rewrite app_nil_r. destruct s as [| |g| |p]; try discriminate Hg.
    + rewrite cana_step_SApply in Hs. injection Hs as <- _ _. split; reflexivity.
    + rewrite cana_step_SLoad in Hs. destruct (srlookup p R); [|discriminate Hs]. injection Hs as <- _ _. split; reflexivity.
Qed.

Lemma cana_steps_ext : forall {hv hl sts lines a exts vs ch l R ch1 l1 R1},
  cana_steps hv hl sts lines a exts vs (ch, l, R) = inr (ch1, l1, R1) ->
  exists new, ch1 = ch ++ new /\ List.length new = List.length (cs_of (list_of_steps sts)).
Proof.
  intros hv hl. induction sts as [|s r IH]; intros lines a exts vs ch l R ch1 l1 R1 Hs.
  - injection Hs as <- _ _. exists []. rewrite app_nil_r. split; reflexivity.
  - rewrite cana_steps_cons in Hs.
    destruct (cana_step hv hl s lines a exts vs (ch, l, R)) as [e|[[chm lm] Rm]] eqn:Em; [discriminate Hs|].
    destruct (cana_step_ext Em) as (n1 & -> & L1). destruct (IH _ _ _ _ _ _ _ _ _ _ Hs) as (n2 & -> & L2).
    exists (n1 ++ n2). rewrite app_assoc. split; [reflexivity|].
    cbn [list_of_steps]. unfold cs_of in *. cbn [flat_map]. rewrite !app_length, L1, L2. reflexivity.
Qed.

(* a run over a step and the rest: the children after the step are the children at the end, cut after the
   interactions of the step - the same for two runs from the same children to the same children over steps with
   the same number of interactions.  This is what lets [A1_steps] (SoundnessA.v) and [A1L_steps] (SoundnessLoadA.v) walk
   two analyses in step knowing only that they start and end with the same children: after every step the two children
   lists are again equal, so the callees met at that step have the same content *)
Lemma cana_steps_cons_mid : forall {hv hl s r lines a exts vs ch l R ch1 l1 R1},
  cana_steps hv hl (SCons s r) lines a exts vs (ch, l, R) = inr (ch1, l1, R1) ->
  let chm := firstn (List.length ch + List.length (acallee s)) ch1 in
  exists lm Rm, cana_step hv hl s lines a exts vs (ch, l, R) = inr (chm, lm, Rm) /\
                cana_steps hv hl r lines a exts vs (chm, lm, Rm) = inr (ch1, l1, R1).
Proof.
  intros hv hl s r lines a exts vs ch l R ch1 l1 R1 H. rewrite cana_steps_cons in H.
  destruct (cana_step hv hl s lines a exts vs (ch, l, R)) as [e|[[chm lm] Rm]] eqn:Em; [discriminate H|].
  destruct (cana_step_ext Em) as (n1 & -> & L1). destruct (cana_steps_ext H) as (n2 & -> & _).
  cbn zeta. rewrite <- L1, <- app_length, firstn_app, firstn_all, Nat.sub_diag, app_nil_r. exists lm, Rm. split; [reflexivity|exact H].
Qed.

Lemma cana_steps_app : forall hv hl l1 l2 lines a exts vs acc,
  cana_steps hv hl (steps_of (l1 ++ l2)) lines a exts vs acc =
  match cana_steps hv hl (steps_of l1) lines a exts vs acc with
  | inl e => inl e
  | inr acc' => cana_steps hv hl (steps_of l2) lines a exts vs acc'
  end.
Proof.
  intros hv hl. induction l1 as [|s r IH]; intros l2 lines a exts vs acc; [reflexivity|].
  cbn [app steps_of]. rewrite !cana_steps_cons.
  destruct (cana_step hv hl s lines a exts vs acc) as [e|acc']; [reflexivity|apply IH].
Qed.

Lemma sana_steps_app : forall hv hl l1 l2 lines inp acc,
  sana_steps hv hl (steps_of (l1 ++ l2)) lines inp acc =
  match sana_steps hv hl (steps_of l1) lines inp acc with
  | inl e => inl e
  | inr acc' => sana_steps hv hl (steps_of l2) lines inp acc'
  end.
Proof.
  induction l1 as [|s r IH]; intros l2 lines inp acc; [reflexivity|].
  cbn [app steps_of]. rewrite !sana_steps_cons. destruct (sana_step hv hl s lines inp acc) as [e|acc']; [reflexivity|apply IH].
Qed.

(* the caller of a call site: an analysed node - argument context, resolved references, parameter values received - with
   its executed body, argument content and variable hashes *)
Record caller := Caller {
  cl_fn : fn; cl_A : cargctx; cl_R : sresolved; cl_pv : list rv;
  cl_vars : list (bytes * pyval); cl_exts : list (bytes * bytes); cl_sts : steps; cl_a : arg_content; cl_vs : list (bytes * bytes) }.
Definition cl_env (c : caller) : env := Env (cl_pv c) (map snd (cl_vars c)) [].

Section Caller.
  Variable hv : pyval -> hres.
  Variable hl : list bytes -> hres.

  Definition caller_wf (c : caller) : Prop :=
    first_body (cl_fn c) = Some (Body (cl_vars c) (cl_exts c) (cl_sts c)) /\
    cargs (cl_A c) = inr (cl_a c) /\ cvars hv (cl_vars c) = inr (cl_vs c).
  Definition cl_step (c : caller) (s : step) : cst3 -> aerr + cst3 := cana_step hv hl s (fn_lines (cl_fn c)) (cl_a c) (cl_exts c) (cl_vs c).
  Definition cl_steps (c : caller) (r : steps) : cst3 -> aerr + cst3 := cana_steps hv hl r (fn_lines (cl_fn c)) (cl_a c) (cl_exts c) (cl_vs c).
  Definition analysed_to (c : caller) (pre : list step) (acc : cst3) : Prop := cl_steps c (steps_of pre) ([], [], cl_R c) = inr acc.

  Lemma analysed_snoc : forall {c pre s acc acc'}, analysed_to c pre acc -> cl_step c s acc = inr acc' -> analysed_to c (pre ++ [s]) acc'.
  Proof.
    intros c pre s acc acc' Ha Hs. unfold analysed_to, cl_steps, cl_step in *.
    rewrite cana_steps_app, Ha. cbn [steps_of]. rewrite cana_steps_cons, Hs. reflexivity.
  Qed.
End Caller.

Definition set_path_opt (o : option bytes) (t : sfi) : sfi := match o with Some p => sfi_set_path t p | None => t end.
Lemma set_path_opt_spec : forall o t, sfi_sig (set_path_opt o t) = sfi_sig t /\ sfi_children (set_path_opt o t) = sfi_children t /\
  sfi_path (set_path_opt o t) = match o with Some p => Some p | None => sfi_path t end.
Proof. intros [p|] [s q n a l c]; repeat split. Qed.

(* the input term of a body whose arguments, external names and variables are [a], [exts], [vs] *)
Notation isig a exts vs := (enc_input (enc_args a) (sextpairs exts) (enc_vars vs)).

(* at a call site: the context term c of the site, the tree t of the callee *)
Lemma sana_site_raw : forall {hv hl s g lines inp inters l R i1 l1 R1}, site_callee s = Some g ->
  sana_step hv hl s lines inp (inters, l, R) = inr (i1, l1, R1) ->
  exists line eline c named t R', site_end s = Some (Nat.max (S line) eline) /\
    scall_ctx hl lines line eline inp inters l = inr c /\ site_named hv s = inr named /\
    sana hv hl g (named, Some c) R = inr (t, R') /\
    i1 = inters ++ [set_path_opt (site_path s) t] /\ l1 = l /\ R1 = srupd_opt (site_path s) (sfi_sig t) R'.
Proof.
  intros hv hl s g lines inp inters l R i1 l1 R1 Hg Hs.
  assert (exists line eline, site_end s = Some (Nat.max (S line) eline) /\
            sana_step hv hl s lines inp (inters, l, R) =
            scall_g hv hl g (scall_ctx hl lines line eline inp inters l) (site_named hv s)
                    (fun t R' => (inters ++ [set_path_opt (site_path s) t], l, srupd_opt (site_path s) (sfi_sig t) R')) R)
    as (line & eline & Ek & E).
  { destruct s as [line eline g0 args|line g0 ex|g0|line eline p g0 pos kw|p]; try discriminate Hg; injection Hg as <-;
      [exists line, eline|exists line, line|exists line, eline]; split; reflexivity. }
  rewrite E in Hs. unfold scall_g in Hs. destruct (scall_ctx hl lines line eline inp inters l) as [e|c] eqn:Ec; [discriminate Hs|].
  destruct (site_named hv s) as [e|named]; [discriminate Hs|].
  destruct (sana hv hl g _ R) as [e|[t R']] eqn:Ht; [discriminate Hs|]. injection Hs as <- <- <-.
  exists line, eline, c, named, t, R'. auto 8.
Qed.

(* ... of a body whose children so far are [ch]: the context term is that of the call site *)
Lemma sana_site : forall {hv hl s g k lines a exts vs inters ch l R i1 l1 R1},
  site_callee s = Some g -> site_end s = Some k -> map sfi_sig inters = map enc ch ->
  sana_step hv hl s lines (isig a exts vs) (inters, l, R) = inr (i1, l1, R1) ->
  exists ph named t R',
    clines hl (firstn k lines) = inr ph /\ site_named hv s = inr named /\
    sana hv hl g (skey (named, Some (Content ph a l ch exts vs))) R = inr (t, R') /\
    i1 = inters ++ [set_path_opt (site_path s) t] /\ l1 = l /\ R1 = srupd_opt (site_path s) (sfi_sig t) R'.
Proof.
  intros hv hl s g k lines a exts vs inters ch l R i1 l1 R1 Hg Hk Hi Hs.
  destruct (sana_site_raw Hg Hs) as (line & eline & c & named & t & R' & Ek & Ec & Hn & Ht & E).
  rewrite Hk in Ek. injection Ek as ->. rewrite (scall_ctx_site hl lines line eline a exts vs inters ch l Hi) in Ec.
  destruct (clines hl _) as [e|ph]; [discriminate Ec|]. injection Ec as <-. exists ph, named, t, R'. auto.
Qed.

Lemma sana_step_ext : forall {hv hl s lines inp i l R i1 l1 R1},
  sana_step hv hl s lines inp (i, l, R) = inr (i1, l1, R1) -> exists more, i1 = i ++ more.
Proof.
  intros hv hl s lines inp i l R i1 l1 R1 Hs. destruct (site_callee s) as [g|] eqn:Hg.
  - destruct (sana_site_raw Hg Hs) as (_ & _ & _ & _ & t & _ & _ & _ & _ & _ & -> & _). eexists. reflexivity.
  - exists []. rewrite app_nil_r. destruct s as [| |g| |p]; try discriminate Hg.
    + rewrite sana_step_SApply in Hs. injection Hs as <- _ _. reflexivity.
    + rewrite sana_step_SLoad in Hs. destruct (srlookup p R); [|discriminate Hs]. injection Hs as <- _ _. reflexivity.
Qed.

Lemma sana_steps_ext : forall {hv hl sts lines inp i l R i1 l1 R1},
  sana_steps hv hl sts lines inp (i, l, R) = inr (i1, l1, R1) -> exists more, i1 = i ++ more.
Proof.
  intros hv hl. induction sts as [|s r IH]; intros lines inp i l R i1 l1 R1 Hs.
  - injection Hs as <- _ _. exists []. symmetry. apply app_nil_r.
  - rewrite sana_steps_cons in Hs.
    destruct (sana_step hv hl s lines inp (i, l, R)) as [e|[[im lm] Rm]] eqn:Em; [discriminate Hs|].
    destruct (sana_step_ext Em) as [m1 ->]. destruct (IH _ _ _ _ _ _ _ _ Hs) as [m2 ->].
    exists (m1 ++ m2). symmetry. apply app_assoc.
Qed.

Lemma same_sig_content : forall {hv hl g A R x R1 g' A' R' x' R1'},
  sana hv hl g (skey A) R = inr (x, R1) -> sana hv hl g' (skey A') R' = inr (x', R1') -> sfi_sig x = sfi_sig x' ->
  exists c, cana hv hl g A R = inr (c, R1) /\ cana hv hl g' A' R' = inr (c, R1').
Proof.
  intros hv hl g A R x R1 g' A' R' x' R1' Hs Hs' Et.
  destruct (sana_content hv hl _ _ _ _ _ Hs) as (c & Hc & Ex). destruct (sana_content hv hl _ _ _ _ _ Hs') as (c' & Hc' & Ex').
  rewrite Ex, Ex' in Et. apply enc_injective in Et. subst c'. exists c. split; assumption.
Qed.

(* a successful run of the symbolic analysis is a successful run of the content analysis, with the same loads and
   resolved references: [agree3] read from its successful side, then for one step and for a list of steps *)
Lemma agree3_inr : forall {im lm Rm r'}, agree3 (inr (im, lm, Rm)) r' ->
  exists chm, r' = inr (chm, lm, Rm) /\ map sfi_sig im = map enc chm.
Proof. intros im lm Rm [e|[[chm lm'] Rm']]; cbn [agree3]; [contradiction|]. intros (Hm & <- & <-). exists chm. auto. Qed.
Lemma AG_step_inr : forall {hv hl s lines a exts vs inters ch l R im lm Rm}, map sfi_sig inters = map enc ch ->
  sana_step hv hl s lines (isig a exts vs) (inters, l, R) = inr (im, lm, Rm) ->
  exists chm, cana_step hv hl s lines a exts vs (ch, l, R) = inr (chm, lm, Rm) /\ map sfi_sig im = map enc chm.
Proof.
  intros hv hl s lines a exts vs inters ch l R im lm Rm Hi Hs. destruct (AG_all hv hl) as (_ & _ & _ & _ & AGstep).
  apply agree3_inr. rewrite <- Hs. exact (AGstep s lines a exts vs inters ch l R Hi).
Qed.
Lemma AG_steps_inr : forall {hv hl sts lines a exts vs inters ch l R im lm Rm}, map sfi_sig inters = map enc ch ->
  sana_steps hv hl sts lines (isig a exts vs) (inters, l, R) = inr (im, lm, Rm) ->
  exists chm, cana_steps hv hl sts lines a exts vs (ch, l, R) = inr (chm, lm, Rm) /\ map sfi_sig im = map enc chm.
Proof.
  intros hv hl sts lines a exts vs inters ch l R im lm Rm Hi Hs. destruct (AG_all hv hl) as (_ & _ & _ & AGsteps & _).
  apply agree3_inr. rewrite <- Hs. exact (AGsteps sts lines a exts vs inters ch l R Hi).
Qed.

Lemma sana_body_inv : forall {hv hl vars exts sts name lines annot A R x R1},
  sana_body hv hl (Body vars exts sts) name lines annot (skey A) R = inr (x, R1) ->
  sfi_path x = annot /\ exists a vs loads, cargs A = inr a /\ cvars hv vars = inr vs /\
    sana_steps hv hl sts lines (isig a exts vs) ([], [], R) = inr (sfi_children x, loads, R1).
Proof.
  intros hv hl vars exts sts name lines annot A R x R1 Hx. rewrite sana_body_eq, sargpairs_cargs, svarpairs_cvars in Hx.
  destruct (cargs A) as [e|a]; [discriminate Hx|]. destruct (cvars hv vars) as [e|vs]; [discriminate Hx|].
  rewrite input_sig_enc in Hx.
  destruct (sana_steps hv hl sts lines _ ([], [], R)) as [e|[[inters loads] R']] eqn:Es; [discriminate Hx|].
  destruct (shash_lines hl lines); [discriminate Hx|]. cbn [SX app] in Hx. injection Hx as <- <-.
  split; [reflexivity|]. exists a, vs, loads. repeat split. exact Es.
Qed.

(* a successful analysis of a node: of the methods of a class, which has no path of its own; of the first body of a
   function, whose path is then registered *)
Lemma sana_node : forall {hv hl g A R t R1}, sana hv hl g A R = inr (t, R1) ->
  if fn_is_class g
  then sfi_path t = None /\ sana_bodies hv hl (fn_bodies g) (fn_name g) (fn_lines g) None A R = inr (sfi_children t, R1)
  else exists b r Ra, fn_bodies g = BCons b r /\ sana_body hv hl b (fn_name g) (fn_lines g) (fn_annot g) A R = inr (t, Ra) /\
         R1 = srupd_opt (fn_annot g) (sfi_sig t) Ra.
Proof.
  intros hv hl [name tag raises lines params annot is_class bds] A R t R1 H. rewrite sana_eq in H.
  cbn [fn_is_class fn_bodies fn_name fn_lines fn_annot]. destruct is_class.
  - destruct (sana_bodies hv hl bds name lines None A R) as [e|[xs Rb]]; [discriminate H|].
    destruct (shash_lines hl lines); [discriminate H|]. cbn [SX] in H. injection H as <- <-. split; reflexivity.
  - destruct bds as [|b r]; [discriminate H|]. destruct (sana_body hv hl b name lines annot A R) as [e|[x Ra]] eqn:Eb; [discriminate H|].
    injection H as <- <-. exists b, r, Ra. auto.
Qed.

(* the steps of the executed body of an analysed node; their trees are the children of the tree of the node, or for a
   class of its first child *)
Lemma sana_fn_steps : forall {hv hl g A R t R1 vars exts sts}, sana hv hl g (skey A) R = inr (t, R1) ->
  first_body g = Some (Body vars exts sts) ->
  exists a vs inters loads Ra, cargs A = inr a /\ cvars hv vars = inr vs /\
    sana_steps hv hl sts (fn_lines g) (isig a exts vs) ([], [], R) = inr (inters, loads, Ra) /\
    (inters = sfi_children t \/ exists x, In x (sfi_children t) /\ inters = sfi_children x).
Proof.
  intros hv hl g A R t R1 vars exts sts H E. destruct (first_body_bodies E) as [r Er]. pose proof (sana_node H) as Hn.
  rewrite Er in Hn. destruct (fn_is_class g).
  - destruct Hn as [_ Hn]. rewrite sana_bodies_cons in Hn.
    destruct (sana_body hv hl _ _ _ None (skey A) R) as [e|[x1 Ra]] eqn:Eb; [discriminate Hn|].
    destruct (sana_bodies hv hl r _ _ None (skey A) Ra) as [e|[xs Rb]]; [discriminate Hn|]. injection Hn as Hk _.
    destruct (sana_body_inv Eb) as (_ & a & vs & loads & Ha & Hv & Hs). exists a, vs, (sfi_children x1), loads, Ra.
    repeat split; try assumption. right. exists x1. rewrite <- Hk. split; [left|]; reflexivity.
  - destruct Hn as (b & r' & Ra & Eb & Hb & _). injection Eb as <- _.
    destruct (sana_body_inv Hb) as (_ & a & vs & loads & Ha & Hv & Hs). exists a, vs, (sfi_children t), loads, Ra. auto 6.
Qed.
