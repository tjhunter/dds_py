(* Soundness of signatures for programs WITH dds.load: the plain meaning with loads, and Theorem A for it.
   [pvl_fn] is the plain meaning with loads: the pure semantics threads [kenv], the value most recently kept at each path
   in program order; dds.keep and data-function calls update it, dds.load reads it.  It is [exec_fn Plain] of DdsEval.v seen
   through the [s_kept] component of the state ([exec_plain_pvl]); an evaluation starts from [kept0 s], what the committed
   paths of the store serve.
   [reg_fn]: the paths an analysis may register.  Outside them the analysis leaves the resolved references alone
   ([cana_frame]) and the execution the kept values ([pvl_frame]).
   [LCons]: consistency with loads.  Every reference that a consistent node resolves is served ([LCons_Resp]): its path
   holds a value that the store, or a consistent producer with that signature, yields.
   Theorem A with loads ([content_determines_value_loads]) goes by induction on the size of signature terms: what a content
   records - the signatures loaded, the children, the call site - is smaller, so two consistent nodes with the same content
   load the same values, call callees with the same outcome, and are called with the same values.
   Builds on SoundnessDefs.v, SoundnessSite.v and the lemmas of SoundnessA.v about one universe (not on its Theorem A).
   Used by SoundnessLoad.v and Properties/C09c.v. *)
From Coq Require Import List Ascii String ZArith NArith Bool Lia.
From DDS Require Import Base.Bytes Base.BytesFacts Extracted.ConstHash L0_Hash.PyVal L0_Hash.DdsHash L1_Args.ArgCtx
     L3_Sig.Program L3_Sig.Sig L3_Sig.SigTree L3_Sig.SigTreeProofs
     L4_Eval.Stages L4_Eval.DdsEval L4_Eval.EvalSpec L4_Eval.EvalProofs L4_Eval.SoundnessDefs L4_Eval.SoundnessSite
     L4_Eval.SoundnessA.
Import ListNotations.

Definition kenv := bytes -> option rv.
Definition kupd (p : bytes) (v : rv) (k : kenv) : kenv := fun q => if bytes_eqb q p then Some v else k q.
(* what the committed paths of a store serve *)
Definition kept0 (s : state) : kenv :=
  fun p => match blookup p (s_paths s) with Some key => blookup key (s_blobs s) | None => None end.

Fixpoint pvl_fn (f : fn) (pvals : list rv) (k : kenv) {struct f} : outcome * kenv :=
  match f with
  | Fn _ tag raises _ _ _ _ bds =>
    match bds with
    | BCons b _ =>
      match pvl_body b (Env pvals [] []) k with
      | (inl o, k') => (o, k')
      | (inr en, k') => (fn_result tag raises en, k')
      end
    | BNil => (LowErr "no-body", k)
    end
  end
with pvl_body (b : body) (en : env) (k : kenv) {struct b} : (outcome + env) * kenv :=
  match b with Body vars _ sts => pvl_steps sts (Env (e_params en) (map snd vars) []) k end
with pvl_steps (sts : steps) (en : env) (k : kenv) {struct sts} : (outcome + env) * kenv :=
  match sts with
  | SNil => (inr en, k)
  | SCons st r =>
    match pvl_step st en k with
    | (inl o, k') => (inl o, k')
    | (inr en', k') => pvl_steps r en' k'
    end
  end
with pvl_step (st : step) (en : env) (k : kenv) {struct st} : (outcome + env) * kenv :=
  let call (g : fn) (path : option bytes) (pv : option (list rv)) : (outcome + env) * kenv :=
    match pv with
    | None => (inl (LowErr "TypeError"), k)
    | Some pv =>
      match pvl_fn g pv k with
      | (Ret v, k') => (inr (add_local en v), match path with Some p => kupd p v k' | None => k' end)
      | (o, k') => (inl o, k')
      end
    end in
  match st with
  | SCall _ _ g args => call g (fn_annot g) (bind_args (fn_params g) 0 (map (eval_expr en) args) [])
  | SRef _ g true | SApply g => call g (fn_annot g) (bind_args (fn_params g) 0 [] [])
  | SRef _ _ false => (inr en, k)
  | SKeep _ _ p g pos kw =>
    call g (Some p) (bind_args (fn_params g) 0 (map (fun ea => eval_expr en (fst ea)) pos)
                               (map (fun nk => (fst nk, eval_expr en (fst (snd nk)))) kw))
  | SLoad p => match k p with Some v => (inr (add_local en v), k) | None => (inl (DdsErr "NONE"), k) end
  end.

Definition kupd_opt (o : option bytes) (v : rv) (k : kenv) : kenv := match o with Some p => kupd p v k | None => k end.

Lemma pvl_fn_body : forall g pvals k,
  pvl_fn g pvals k =
  match first_body g with
  | Some b => match pvl_body b (Env pvals [] []) k with
              | (inl o, k') => (o, k')
              | (inr en, k') => (fn_result (fn_tag g) (fn_raises g) en, k')
              end
  | None => (LowErr "no-body", k)
  end.
Proof. intros [n tag raises l p a c [|b r]] pvals k; reflexivity. Qed.
Lemma pvl_body_eq : forall vars exts sts en k,
  pvl_body (Body vars exts sts) en k = pvl_steps sts (Env (e_params en) (map snd vars) []) k.
Proof. reflexivity. Qed.
Lemma pvl_steps_cons : forall st r en k,
  pvl_steps (SCons st r) en k =
  match pvl_step st en k with (inl o, k') => (inl o, k') | (inr en', k') => pvl_steps r en' k' end.
Proof. reflexivity. Qed.

Definition pvl_call (en : env) (k : kenv) (g : fn) (path : option bytes) (pv : option (list rv)) : (outcome + env) * kenv :=
  match pv with
  | None => (inl (LowErr "TypeError"), k)
  | Some pv =>
    match pvl_fn g pv k with
    | (Ret v, k') => (inr (add_local en v), kupd_opt path v k')
    | (o, k') => (inl o, k')
    end
  end.
Lemma pvl_step_site : forall s g en k, site_callee s = Some g ->
  pvl_step s en k = if site_runs s then pvl_call en k g (site_kpath s g) (site_pv s en) else (inr en, k).
Proof.
  intros [l e g0 a|l g0 [|]|g0|l e p g0 pos kw|p] g en k H; try discriminate H; injection H as <-; reflexivity.
Qed.
Lemma pvl_step_load : forall p en k,
  pvl_step (SLoad p) en k = match k p with Some v => (inr (add_local en v), k) | None => (inl (DdsErr "NONE"), k) end.
Proof. reflexivity. Qed.
Lemma pvl_step_apply : forall g en k, pvl_step (SApply g) en k = pvl_call en k g (fn_annot g) (bind_args (fn_params g) 0 [] []).
Proof. reflexivity. Qed.

(* the execution of a call whose value is kept at [path] (dds.keep, a data function) or not at all *)
Definition call_at (m : mode) (en : env) (s : state) (g : fn) (path : option bytes) (pv : list rv) : (outcome + env) * state :=
  match path with
  | Some p => kept_call m en s g p pv
  | None => match exec_fn m g pv s with (Ret v, s') => (inr (add_local en v), s') | (o, s') => (inl o, s') end
  end.
Lemma exec_fn_body : forall m g pvals s,
  exec_fn m g pvals s =
  match first_body g with
  | Some b => match exec_body m b (Env pvals [] []) s with
              | (inl o, s') => (o, s')
              | (inr en, s') => (fn_result (fn_tag g) (fn_raises g) en, st_log (fn_tag g) s')
              end
  | None => (LowErr "no-body", s)
  end.
Proof. intros m [n tag ra l p a c bds] pvals s. rewrite exec_fn_eq. destruct bds; reflexivity. Qed.
Lemma user_call_at : forall m en s g pv, user_call m en s g pv = call_at m en s g (fn_annot g) pv.
Proof. intros m en s g pv. unfold user_call, call_at. destruct (fn_annot g); reflexivity. Qed.
Lemma exec_step_site : forall m s g en st, site_callee s = Some g ->
  exec_step m s en st =
  if site_runs s then match site_pv s en with Some pv => call_at m en st g (site_kpath s g) pv | None => (inl (LowErr "TypeError"), st) end
  else (inr en, st).
Proof.
  intros m [l e g0 a|l g0 [|]|g0|l e p g0 pos kw|p] g en st H; try discriminate H; injection H as <-; rewrite exec_step_view;
    cbn [step_view exec_view site_runs site_pv]; try reflexivity; unfold call_opt, keep_opt;
    destruct (bind_args _ _ _ _); try rewrite user_call_at; reflexivity.
Qed.

Lemma kupd_same : forall p v k, kupd p v k p = Some v.
Proof. intros p v k. unfold kupd. rewrite bytes_eqb_refl. reflexivity. Qed.
Lemma kupd_other : forall p q v k, q <> p -> kupd p v k q = k q.
Proof. intros p q v k Hne. unfold kupd. destruct (bytes_eqb_spec q p); [contradiction|reflexivity]. Qed.

Definition klink (s : state) (k : kenv) : Prop := forall q, blookup q (s_kept s) = k q.
Definition same_store (s s' : state) : Prop := s_blobs s' = s_blobs s /\ s_paths s' = s_paths s.

(* the result of a reference execution against the plain meaning *)
Inductive PLr {X : Type} : X * state -> X * kenv -> Prop :=
  PLr_intro : forall x s k, klink s k -> PLr (x, s) (x, k).

Lemma klink_keep : forall s k p v, klink s k -> klink (st_keep p v s) (kupd p v k).
Proof.
  intros s k p v Hl q. cbn [st_keep s_kept]. unfold kupd. destruct (bytes_eqb_spec q p) as [->|E].
  - apply blookup_bupdate_same.
  - rewrite blookup_bupdate_other by exact E. apply Hl.
Qed.

Lemma PL_call : forall g, (forall pvals s k, klink s k -> PLr (exec_fn Plain g pvals s) (pvl_fn g pvals k)) ->
  forall en s k path pvo, klink s k ->
  PLr (match pvo with Some pv => call_at Plain en s g path pv | None => (inl (LowErr "TypeError"), s) end) (pvl_call en k g path pvo).
Proof.
  intros g IH en s k path [pv|] Hl; [|exact (PLr_intro _ _ _ Hl)]. unfold call_at, kept_call, pvl_call.
  destruct (IH pv s k Hl) as [o s1 k1 Hl1].
  destruct path as [p|]; destruct o as [v| | |]; constructor; try exact Hl1. apply klink_keep. exact Hl1.
Qed.

Lemma PL_all : (forall f pvals s k, klink s k -> PLr (exec_fn Plain f pvals s) (pvl_fn f pvals k)) /\
  (forall sts en s k, klink s k -> PLr (exec_steps Plain sts en s) (pvl_steps sts en k)) /\
  (forall st en s k, klink s k -> PLr (exec_step Plain st en s) (pvl_step st en k)).
Proof.
  apply fn_site_ind.
  - intros g IH pvals s k Hl. rewrite exec_fn_body, pvl_fn_body.
    destruct (first_body g) as [[vars exts sts]|] eqn:Eb; [|exact (PLr_intro _ _ _ Hl)]. rewrite exec_body_eq, pvl_body_eq. cbn [e_params].
    destruct (IH vars exts sts eq_refl (Env pvals (map snd vars) []) s k Hl) as [[o|en] s1 k1 Hl1]; constructor; exact Hl1.
  - intros en s k Hl. exact (PLr_intro _ _ _ Hl).
  - intros st r IHs IHr en s k Hl. rewrite exec_steps_cons, pvl_steps_cons.
    destruct (IHs en s k Hl) as [[o|en1] s1 k1 Hl1]; [exact (PLr_intro _ _ _ Hl1)|exact (IHr en1 s1 k1 Hl1)].
  - intros st g Hg IHg en s k Hl. rewrite (exec_step_site Plain st g en s Hg), (pvl_step_site st g en k Hg).
    destruct (site_runs st); [exact (PL_call g IHg en s k _ _ Hl)|exact (PLr_intro _ _ _ Hl)].
  - intros g IHg en s k Hl. rewrite exec_step_view, pvl_step_apply. cbn [step_view exec_view]. unfold call_opt.
    pose proof (PL_call g IHg en s k (fn_annot g) (bind_args (fn_params g) 0 [] []) Hl) as Hc.
    destruct (bind_args _ _ _ _); [rewrite user_call_at|]; exact Hc.
  - intros p en s k Hl. rewrite exec_step_view, pvl_step_load. cbn [step_view exec_view]. unfold load_step. rewrite (Hl p).
    destruct (k p); exact (PLr_intro _ _ _ Hl).
Qed.

(* The plain meaning with loads IS the reference execution of DdsEval.v: outcome, and the kept values afterwards;
   blobs and committed paths are not touched. *)
Theorem exec_plain_pvl : forall f pvals s k, klink s k ->
  fst (exec_fn Plain f pvals s) = fst (pvl_fn f pvals k) /\
  klink (snd (exec_fn Plain f pvals s)) (snd (pvl_fn f pvals k)) /\
  same_store s (snd (exec_fn Plain f pvals s)).
Proof.
  intros f pvals s k Hl. generalize (conj (plain_blobs_unchanged f pvals s) (exec_paths_unchanged Plain f pvals s) : same_store s _).
  destruct (proj1 PL_all f pvals s k Hl) as [o s1 k1 Hk]. intros Hs. exact (conj eq_refl (conj Hk Hs)).
Qed.

Lemma pvl_step_not_ret : forall {st en k o k'}, pvl_step st en k = (inl o, k') -> forall v, o <> Ret v.
Proof.
  intros st en k o k' H v.
  assert (Hc : forall g path pvo, pvl_call en k g path pvo = (inl o, k') -> o <> Ret v).
  { intros g path [pv|] Hc; cbn [pvl_call] in Hc; [|injection Hc as <- _; discriminate].
    destruct (pvl_fn g pv k) as [[w| | |] k1]; try discriminate Hc; injection Hc as <- _; discriminate. }
  destruct (site_callee st) as [g|] eqn:Hg.
  - rewrite (pvl_step_site st g en k Hg) in H. destruct (site_runs st); [exact (Hc _ _ _ H)|discriminate H].
  - destruct st as [| |g| |p]; try discriminate Hg; [exact (Hc g _ _ H)|].
    rewrite pvl_step_load in H. destruct (k p); [discriminate H|injection H as <- _; discriminate].
Qed.
Lemma pvl_steps_not_ret : forall {sts en k o k'}, pvl_steps sts en k = (inl o, k') -> forall v, o <> Ret v.
Proof.
  induction sts as [|st r IH]; intros en k o k' H v; [discriminate H|]. rewrite pvl_steps_cons in H.
  destruct (pvl_step st en k) as [[o1|en1] k1] eqn:E.
  - injection H as <- _. exact (pvl_step_not_ret E v).
  - exact (IH _ _ _ _ H v).
Qed.
(* the paths that an analysis can register / an execution can keep *)
Fixpoint reg_fn (f : fn) : list bytes :=
  match f with Fn _ _ _ _ _ annot _ bds => (match annot with Some p => [p] | None => [] end) ++ reg_bodies bds end
with reg_bodies (b : bodies) : list bytes :=
  match b with BNil => [] | BCons x r => reg_body x ++ reg_bodies r end
with reg_body (b : body) : list bytes :=
  match b with Body _ _ sts => reg_steps sts end
with reg_steps (s : steps) : list bytes :=
  match s with SNil => [] | SCons x r => reg_step x ++ reg_steps r end
with reg_step (s : step) : list bytes :=
  match s with
  | SLoad _ => []
  | SCall _ _ g _ | SRef _ g _ | SApply g => reg_fn g
  | SKeep _ _ p g _ _ => p :: reg_fn g
  end.
Definition reg_l (l : list step) : list bytes := flat_map reg_step l.

Lemma reg_steps_l : forall sts, reg_steps sts = reg_l (list_of_steps sts).
Proof. induction sts as [|x r IH]; [reflexivity|]. cbn [reg_steps list_of_steps reg_l flat_map]. rewrite IH. reflexivity. Qed.

Definition opt_list (o : option bytes) : list bytes := match o with Some p => [p] | None => [] end.
Lemma reg_fn_eq : forall g, reg_fn g = opt_list (fn_annot g) ++ reg_bodies (fn_bodies g).
Proof. intros [n t r l p a c b]. reflexivity. Qed.
Lemma reg_step_site : forall s g, site_callee s = Some g -> reg_step s = opt_list (site_path s) ++ reg_fn g.
Proof. intros [| | | |] g H; try discriminate H; injection H as <-; reflexivity. Qed.
Lemma annot_reg : forall g, incl (opt_list (fn_annot g)) (reg_fn g).
Proof. intros g. rewrite reg_fn_eq. apply incl_appl, incl_refl. Qed.
Lemma reg_fn_body : forall g b, first_body g = Some b -> incl (reg_body b) (reg_fn g).
Proof.
  intros g b H p Hp. destruct (first_body_bodies H) as [r E]. rewrite reg_fn_eq, E. cbn [reg_bodies].
  apply in_or_app. right. apply in_or_app. left. exact Hp.
Qed.

Lemma site_kpath_reg : forall s g, site_callee s = Some g -> incl (opt_list (site_kpath s g) ++ reg_fn g) (reg_step s).
Proof.
  intros s g Hg. rewrite (reg_step_site s g Hg). unfold site_kpath. destruct (site_path s); [apply incl_refl|].
  exact (incl_app (annot_reg g) (incl_refl _)).
Qed.

Definition agree_out {A : Type} (l : list bytes) (f g : bytes -> option A) : Prop := forall p, ~ In p l -> g p = f p.
Lemma agree_out_refl : forall {A : Type} {l} (f : bytes -> option A), agree_out l f f.
Proof. intros A l f p _. reflexivity. Qed.
Lemma agree_out_trans : forall {A : Type} {l1 l2 l} {f g h : bytes -> option A},
  agree_out l1 f g -> agree_out l2 g h -> incl l1 l -> incl l2 l -> agree_out l f h.
Proof. intros A l1 l2 l f g h H1 H2 I1 I2 p Hn. rewrite H2, H1; [reflexivity| |]; intro Hc; apply Hn; [apply I1|apply I2]; exact Hc. Qed.
Lemma agree_out_incl : forall {A : Type} {l l'} {f g : bytes -> option A}, incl l l' -> agree_out l f g -> agree_out l' f g.
Proof. intros A l l' f g Hi H p Hn. apply H. intro Hc. exact (Hn (Hi p Hc)). Qed.
Lemma incl_l : forall {A : Type} {l m : list A}, incl l (l ++ m).
Proof. intros A l m. apply incl_appl, incl_refl. Qed.
Lemma incl_r : forall {A : Type} {l m : list A}, incl m (l ++ m).
Proof. intros A l m. apply incl_appr, incl_refl. Qed.

Lemma srupd_opt_out : forall o sg R, agree_out (opt_list o) (fun p => srlookup p R) (fun p => srlookup p (srupd_opt o sg R)).
Proof.
  intros [q|] sg R p Hn; [|reflexivity]. apply srlookup_srupdate_other. intro E. apply Hn. left. symmetry. exact E.
Qed.
Lemma kupd_opt_out : forall o v k, agree_out (opt_list o) k (kupd_opt o v k).
Proof. intros [q|] v k p Hn; [|reflexivity]. apply kupd_other. intro E. apply Hn. left. symmetry. exact E. Qed.

Section Frames.
  Variable hv : pyval -> hres.
  Variable hl : list bytes -> hres.
  Local Notation sr R := (fun p => srlookup p R).

  (* the analysis leaves alone the resolved reference of every path outside [reg] *)
  Lemma FR_all :
    (forall f A R c R1, cana hv hl f A R = inr (c, R1) -> agree_out (reg_fn f) (sr R) (sr R1)) /\
    (forall b lines A R cs R1, cana_bodies hv hl b lines A R = inr (cs, R1) -> agree_out (reg_bodies b) (sr R) (sr R1)) /\
    (forall b lines A R c R1, cana_body hv hl b lines A R = inr (c, R1) -> agree_out (reg_body b) (sr R) (sr R1)) /\
    (forall s lines a exts vs ch l R ch1 l1 R1,
      cana_steps hv hl s lines a exts vs (ch, l, R) = inr (ch1, l1, R1) -> agree_out (reg_steps s) (sr R) (sr R1)) /\
    (forall s lines a exts vs ch l R ch1 l1 R1,
      cana_step hv hl s lines a exts vs (ch, l, R) = inr (ch1, l1, R1) -> agree_out (reg_step s) (sr R) (sr R1)).
  Proof.
    apply prog_site_ind.
    - intros [n t ra lines ps annot cl bds] IH IH1 A R c R1 Hc. rewrite cana_eq in Hc. rewrite reg_fn_eq.
      cbn [fn_annot fn_bodies] in *. destruct cl.
      + destruct (cana_bodies hv hl bds lines A R) as [e|[ms R']] eqn:Eb; [discriminate Hc|].
        destruct (clines hl lines); [discriminate Hc|]. injection Hc as _ <-.
        exact (agree_out_incl incl_r (IH _ _ _ _ _ Eb)).
      + destruct bds as [|b r]; [discriminate Hc|].
        destruct (cana_body hv hl b lines A R) as [e|[c0 R']] eqn:Eb; [discriminate Hc|]. injection Hc as _ <-.
        exact (agree_out_trans (IH1 b eq_refl _ _ _ _ _ Eb) (srupd_opt_out annot (enc c0) R')
                 (incl_tran incl_l incl_r) incl_l).
    - intros lines A R cs R1 Hc. injection Hc as _ <-. apply agree_out_refl.
    - intros b r IHb IHr lines A R cs R1 Hc. rewrite cana_bodies_cons in Hc.
      destruct (cana_body hv hl b lines A R) as [e|[c0 R']] eqn:Eb; [discriminate Hc|].
      destruct (cana_bodies hv hl r lines A R') as [e|[cs0 R'']] eqn:Er; [discriminate Hc|]. injection Hc as _ <-.
      exact (agree_out_trans (IHb _ _ _ _ _ Eb) (IHr _ _ _ _ _ Er) incl_l incl_r).
    - intros vars exts sts IH lines A R c R1 Hc.
      destruct (cana_body_inv Hc) as (a & vs & ch & loads & lh & _ & _ & Hs & _). exact (IH _ _ _ _ _ _ _ _ _ _ Hs).
    - intros lines a exts vs ch l R ch1 l1 R1 Hc. injection Hc as _ _ <-. apply agree_out_refl.
    - intros s r IHs IHr lines a exts vs ch l R ch1 l1 R1 Hc. rewrite cana_steps_cons in Hc.
      destruct (cana_step hv hl s lines a exts vs (ch, l, R)) as [e|[[chm lm] Rm]] eqn:Em; [discriminate Hc|].
      exact (agree_out_trans (IHs _ _ _ _ _ _ _ _ _ _ Em) (IHr _ _ _ _ _ _ _ _ _ _ Hc)
               incl_l incl_r).
    - intros s g Hg IHg lines a exts vs ch l R ch1 l1 R1 Hc. destruct (site_has_end Hg) as [k Hk].
      destruct (cana_site Hg Hk Hc) as (ph & named & c & R' & _ & _ & Hcg & _ & _ & ->).
      rewrite (reg_step_site s g Hg).
      exact (agree_out_trans (IHg _ _ _ _ Hcg) (srupd_opt_out _ _ _) incl_r incl_l).
    - intros g _ lines a exts vs ch l R ch1 l1 R1 Hc. rewrite cana_step_SApply in Hc. injection Hc as _ _ <-. apply agree_out_refl.
    - intros q lines a exts vs ch l R ch1 l1 R1 Hc. rewrite cana_step_SLoad in Hc.
      destruct (srlookup q R); [|discriminate Hc]. injection Hc as _ _ <-. apply agree_out_refl.
  Qed.

  Theorem cana_frame : forall f A R c R1, cana hv hl f A R = inr (c, R1) ->
    forall p, ~ In p (reg_fn f) -> srlookup p R1 = srlookup p R.
  Proof. exact (proj1 FR_all). Qed.
  Theorem cana_bodies_frame : forall b lines A R cs R1, cana_bodies hv hl b lines A R = inr (cs, R1) ->
    forall p, ~ In p (reg_bodies b) -> srlookup p R1 = srlookup p R.
  Proof. exact (proj1 (proj2 FR_all)). Qed.
  Theorem cana_steps_frame : forall s lines a exts vs ch l R ch1 l1 R1,
    cana_steps hv hl s lines a exts vs (ch, l, R) = inr (ch1, l1, R1) ->
    forall p, ~ In p (reg_steps s) -> srlookup p R1 = srlookup p R.
  Proof. exact (proj1 (proj2 (proj2 (proj2 FR_all)))). Qed.
  Theorem cana_step_frame : forall s lines a exts vs ch l R ch1 l1 R1,
    cana_step hv hl s lines a exts vs (ch, l, R) = inr (ch1, l1, R1) ->
    forall p, ~ In p (reg_step s) -> srlookup p R1 = srlookup p R.
  Proof. exact (proj2 (proj2 (proj2 (proj2 FR_all)))). Qed.
End Frames.

(* an execution leaves alone the kept value of every path outside [reg] *)
Lemma TF_call : forall g, (forall pv k, agree_out (reg_fn g) k (snd (pvl_fn g pv k))) ->
  forall en k path pv, agree_out (opt_list path ++ reg_fn g) k (snd (pvl_call en k g path pv)).
Proof.
  intros g IH en k path [pv|]; [|apply agree_out_refl]. unfold pvl_call. specialize (IH pv k).
  destruct (pvl_fn g pv k) as [[v| | |] k1]; cbn [snd] in *;
    try exact (agree_out_incl incl_r IH).
  exact (agree_out_trans IH (kupd_opt_out path v k1) incl_r incl_l).
Qed.

Lemma TF_all : (forall f pv k, agree_out (reg_fn f) k (snd (pvl_fn f pv k))) /\
  (forall s en k, agree_out (reg_steps s) k (snd (pvl_steps s en k))) /\
  (forall s en k, agree_out (reg_step s) k (snd (pvl_step s en k))).
Proof.
  apply fn_site_ind.
  - intros g IH pv k. rewrite pvl_fn_body. destruct (first_body g) as [[vars exts sts]|] eqn:Eb; [|apply agree_out_refl].
    specialize (IH vars exts sts eq_refl (Env pv (map snd vars) []) k). rewrite pvl_body_eq.
    destruct (pvl_steps sts _ k) as [[o|en] k1]; exact (agree_out_incl (reg_fn_body g _ Eb) IH).
  - intros en k. apply agree_out_refl.
  - intros s r IHs IHr en k. rewrite pvl_steps_cons. specialize (IHs en k).
    destruct (pvl_step s en k) as [[o|en1] k1]; cbn [snd] in *; [exact (agree_out_incl incl_l IHs)|].
    exact (agree_out_trans IHs (IHr en1 k1) incl_l incl_r).
  - intros s g Hg IHg en k. rewrite (pvl_step_site s g en k Hg). destruct (site_runs s); [|apply agree_out_refl].
    apply (agree_out_incl (site_kpath_reg s g Hg)). apply TF_call. exact IHg.
  - intros g IHg en k. exact (agree_out_incl (incl_app (annot_reg g) (incl_refl _)) (TF_call g IHg en k _ _)).
  - intros q en k. rewrite pvl_step_load. destruct (k q); apply agree_out_refl.
Qed.

Theorem pvl_frame : forall f pv k p, ~ In p (reg_fn f) -> snd (pvl_fn f pv k) p = k p.
Proof. exact (proj1 TF_all). Qed.
Theorem pvl_steps_frame : forall s en k p, ~ In p (reg_steps s) -> snd (pvl_steps s en k) p = k p.
Proof. exact (proj1 (proj2 TF_all)). Qed.

(* size of signature terms: the signature found at a loaded path is a strict sub-term of the reader's signature *)
Fixpoint dsize (t : dg) : nat :=
  match t with
  | DBytes _ | DHash _ => 1
  | DComb l => S ((fix go (l : list (bytes * dg)) : nat := match l with [] => 0 | kv :: r => dsize (snd kv) + go r end) l)
  end.
Fixpoint dsum (l : list (bytes * dg)) : nat := match l with [] => 0 | kv :: r => dsize (snd kv) + dsum r end.
Lemma dsize_comb : forall l, dsize (DComb l) = S (dsum l).
Proof. intros l. reflexivity. Qed.
Lemma dsum_app : forall a b, dsum (a ++ b) = dsum a + dsum b.
Proof. induction a as [|x a IH]; intros b; [reflexivity|]. cbn [app dsum]. rewrite IH. lia. Qed.
Lemma dsum_in : forall k t l, In (k, t) l -> dsize t <= dsum l.
Proof.
  intros k t. induction l as [|x l IH]; intros Hin; [destruct Hin|]. cbn [dsum]. destruct Hin as [->|Hin].
  - cbn [snd]. lia.
  - specialize (IH Hin). lia.
Qed.
Lemma dsize_pos : forall t, 1 <= dsize t.
Proof. intros [b|b|l]; cbn [dsize]; lia. Qed.

Lemma dsum_sigl : forall t l i, In t l -> dsize t <= dsum (sigl_from i l).
Proof.
  intros t. induction l as [|x l IH]; intros i Hin; [destruct Hin|]. cbn [sigl_from dsum snd]. destruct Hin as [->|Hin]; [lia|].
  specialize (IH (S i) Hin). lia.
Qed.
Lemma dsum_opt_entry : forall k l, dsum l <= dsum (opt_entry k l).
Proof. intros k [|x l]; [apply le_n|]. cbn [opt_entry dsum snd]. rewrite dsize_comb. cbn [dsum]. lia. Qed.
Lemma dsize_enc_input : forall ap ep vp, dsum ap <= dsize (enc_input ap ep vp).
Proof.
  intros ap ep vp. unfold enc_input. destruct (ap ++ ep ++ vp) eqn:E.
  - destruct ap; [cbn; lia|discriminate E].
  - rewrite <- E, dsize_comb, dsum_app. lia.
Qed.

Lemma srlookup_In : forall {p sg l}, srlookup p l = Some sg -> In (p, sg) l.
Proof.
  intros p sg. induction l as [|[k v] t IH]; intros H; [discriminate H|]. cbn [srlookup] in H.
  destruct (bytes_eqb_spec p k) as [->|_]; [injection H as ->; left; reflexivity|right; exact (IH H)].
Qed.

Definition small_args (m : nat) (a : arg_content) : Prop :=
  match a with ArgsFromContext s => dsize (enc_site s) < m | ArgsKnown _ => True end.

(* the loads, the children and the call site recorded in a content are smaller than its signature term and than its
   context term *)
Lemma content_small : forall lh a loads ch exts vs m,
  dsize (enc (Content lh a loads ch exts vs)) <= m \/ dsize (enc_site (Content lh a loads ch exts vs)) <= m ->
  (forall p sg, srlookup p loads = Some sg -> dsize sg < m) /\ (forall c, In c ch -> dsize (enc c) < m) /\ small_args m a.
Proof.
  intros lh a loads ch exts vs m Hm.
  assert (H : dsum (enc_args a) + dsum (sdep_pairs loads) + dsum (sigl_from 0 (map enc ch)) < m).
  { destruct Hm as [Hm|Hm]; [rewrite enc_eq in Hm|rewrite enc_site_eq in Hm]; rewrite dsize_comb, !dsum_app in Hm;
      cbn [dsum snd] in Hm; [lia|].
    pose proof (dsum_opt_entry k_fun_inter (sigl_from 0 (map enc ch))). pose proof (dsum_opt_entry k_fun_deps (sdep_pairs loads)).
    pose proof (dsize_enc_input (enc_args a) (sextpairs exts) (enc_vars vs)). lia. }
  split; [|split].
  - intros p sg Hp.
    pose proof (dsum_in (k_dep p) sg (sdep_pairs loads) (in_map (fun ps : bytes * dg => (k_dep (fst ps), snd ps)) loads (p, sg) (srlookup_In Hp))). lia.
  - intros c Hin. pose proof (dsum_sigl (enc c) (map enc ch) 0 (in_map enc ch c Hin)). lia.
  - destruct a as [l|s]; [exact I|]. cbn [enc_args dsum snd small_args] in *. lia.
Qed.

Lemma body_content_small : forall cl c c1 n, body_content cl c = Some c1 -> dsize (enc c) <= n -> dsize (enc c1) <= n.
Proof.
  intros cl c c1 n H Hsz. unfold body_content in H. destruct cl; [|injection H as <-; exact Hsz].
  destruct c as [lh a lo [|c0 chs] ex va]; [discriminate H|]. injection H as <-.
  exact (Nat.lt_le_incl _ _ (proj1 (proj2 (content_small lh a lo _ ex va n (or_introl Hsz))) _ (or_introl eq_refl))).
Qed.

(* what the analysis walks and the execution does not (or conversely) must not register / keep paths:
   - apply(g) (executed a second time, not analysed): excluded from universes with loads;
   - dds.keep(p, g) of a data function g (two paths for one node): excluded;
   - a by-name mention that is not a call ([SRef _ g false]: analysed, not executed) of a g that keeps paths: excluded -
     FINDING F33 (real library, repaired): the analysis registers the paths kept below g and accepts a later dds.load of
     one of them; nothing produces it: the load used to return None, it now raises LOAD_BEFORE_STORE
     (SoundnessLoad.byname_producer_rejected) - rejected, but still not the plain outcome, hence the exclusion stays;
   - the methods of a class other than the first (analysed, not executed): the same (this one is asked by [lwf_fn] below). *)
Definition lwf_step (s : step) : Prop :=
  match s with
  | SApply _ => False
  | SKeep _ _ _ g _ _ => fn_annot g = None
  | SRef _ g false => reg_fn g = []
  | _ => True
  end.
(* a body does not keep a path after loading it (it would have to be kept twice in the evaluation, or loaded before being
   produced: both are rejected / excluded anyway): every load of p in the body then finds the same signature *)
Fixpoint lwf_lsteps (l : list step) : Prop :=
  match l with
  | [] => True
  | s :: r => lwf_step s /\ (match s with SLoad p => ~ In p (reg_l r) | _ => True end) /\ lwf_lsteps r
  end.
Definition lwf_fn (f : fn) : Prop :=
  match fn_bodies f with
  | BCons b r => lwf_lsteps (body_steps b) /\ reg_bodies r = []
  | BNil => True
  end.

Lemma lwf_lsteps_app : forall l1 l2, lwf_lsteps (l1 ++ l2) -> lwf_lsteps l1 /\ lwf_lsteps l2.
Proof.
  induction l1 as [|s r IH]; intros l2 H; [split; [exact I|exact H]|].
  cbn [app lwf_lsteps] in H. destruct H as (H1 & H2 & H3). destruct (IH l2 H3) as [Ha Hb].
  split; [|exact Hb]. cbn [lwf_lsteps]. split; [exact H1|]. split; [|exact Ha].
  destruct s; try exact I. intro Hc. apply H2. unfold reg_l in *. rewrite flat_map_app. apply in_or_app. left. exact Hc.
Qed.

Section TheoremAL.
  Variable hv : pyval -> hres.
  Variable hl : list bytes -> hres.
  Variable UVal : pyval -> Prop.
  Variable U : fn -> Prop.
  (* top-level calls: named arguments, the resolved references fetched from the store, bound values, what the committed
     paths serve *)
  Variable RootL : fn -> list (bytes * option bytes) -> sresolved -> list rv -> kenv -> Prop.
  (* what a signature fetched from the store serves *)
  Variable Ext : dg -> rv -> Prop.

  Definition RootOK_L (f : fn) (named : list (bytes * option bytes)) (pv : list rv) : Prop :=
    exists R0 k0, RootL f named R0 pv k0.

  Record luniv_ok : Prop := {
    l_univ : univ_ok hv hl UVal U RootOK_L;
    l_wf : forall f, U f -> lwf_fn f;
    (* the references fetched for a top-level call are served by the store: the path has a value, the one that the fetched
       signature denotes *)
    l_root : forall f named R0 pv k0, RootL f named R0 pv k0 ->
             forall p sg, srlookup p R0 = Some sg -> exists v, k0 p = Some v /\ Ext sg v;
    (* a signature in the store denotes one value; it is a leaf of signature terms *)
    l_ext_fun : forall sg v v', Ext sg v -> Ext sg v' -> v = v';
    l_ext_leaf : forall sg v, Ext sg v -> exists b, sg = DBytes b
  }.

  (* [LCons g A R pv k]: g is analysed with argument context A and resolved references R; it receives the parameter
     values pv in the kept-environment k *)
  Inductive LCons : fn -> cargctx -> sresolved -> list rv -> kenv -> Prop :=
  | LRoot : forall f named R0 pv k0, RootL f named R0 pv k0 -> LCons f (named, None) R0 pv k0
  | LSite : forall f Af Rf pvf kf vars exts sts af vs pre s post ch loads R1 en ks g k ph named pv,
      LCons f Af Rf pvf kf ->
      first_body f = Some (Body vars exts sts) ->
      list_of_steps sts = pre ++ s :: post ->
      cargs Af = inr af ->
      cvars hv vars = inr vs ->
      cana_steps hv hl (steps_of pre) (fn_lines f) af exts vs ([], [], Rf) = inr (ch, loads, R1) ->
      pvl_steps (steps_of pre) (Env pvf (map snd vars) []) kf = (inr en, ks) ->
      site_callee s = Some g -> site_end s = Some k ->
      clines hl (firstn k (fn_lines f)) = inr ph ->
      site_named hv s = inr named ->
      site_pv s en = Some pv ->
      LCons g (named, Some (Content ph af loads ch exts vs)) R1 pv ks.

  Hypothesis HL : luniv_ok.
  Let HU := l_univ HL.

  Definition step_ok (s : step) : Prop := (forall h, In h (step_callee s) -> U h) /\ lwf_step s.

  (* a call site of a well-formed body: a keep is not of a data function; what is analysed and not run registers nothing *)
  Lemma lwf_site : forall {s g}, lwf_step s -> site_callee s = Some g ->
    (site_path s <> None -> fn_annot g = None) /\ (site_runs s = false -> site_path s = None /\ reg_fn g = []).
  Proof.
    intros [l e g0 a|l g0 [|]|g0|l e p g0 pos kw|p] g Hl Hg; try discriminate Hg; injection Hg as <-; cbn in *;
      (split; [intros H|intros H; try discriminate H]); try (exfalso; apply H; reflexivity); auto.
  Qed.
  Lemma site_kpath_eq : forall {s g} v k, lwf_step s -> site_callee s = Some g ->
    kupd_opt (site_kpath s g) v k = kupd_opt (site_path s) v (kupd_opt (fn_annot g) v k).
  Proof.
    intros s g v k Hl Hg. unfold site_kpath. destruct (site_path s) as [p|] eqn:Ep; [|reflexivity].
    rewrite (proj1 (lwf_site Hl Hg)); [reflexivity|]. rewrite Ep. discriminate.
  Qed.

  (* the analysis of a function of the universe through the steps of its executed body: what is analysed and not
     executed (the other methods of a class) registers nothing *)
  Lemma cana_fn_steps_U : forall {g A R c R1 vars exts sts}, U g -> cana hv hl g A R = inr (c, R1) ->
    first_body g = Some (Body vars exts sts) ->
    exists a vs ch loads lh Ra, cargs A = inr a /\ cvars hv vars = inr vs /\
      cana_steps hv hl sts (fn_lines g) a exts vs ([], [], R) = inr (ch, loads, Ra) /\
      body_content (fn_is_class g) c = Some (Content lh a loads ch exts vs) /\
      forall p, srlookup p R1 = srlookup p (srupd_opt (fn_annot g) (enc c) Ra).
  Proof.
    intros g A R c R1 vars exts sts Ug Hc Eb.
    destruct (cana_fn_steps Hc Eb) as (a & vs & ch & loads & lh & Ra & Ha & Hv & Hs & Hb & HR). exists a, vs, ch, loads, lh, Ra.
    repeat (split; [assumption|]). intros p. destruct (fn_is_class g) eqn:Ecl; [|rewrite HR; reflexivity].
    destruct HR as (r & cs & Er & Hr). rewrite (proj1 (proj2 (u_wf _ _ _ _ _ HU g Ug)) Ecl).
    apply (cana_bodies_frame hv hl _ _ _ _ _ _ Hr). pose proof (l_wf HL g Ug) as Hl. unfold lwf_fn in Hl. rewrite Er in Hl.
    rewrite (proj2 Hl). intros [].
  Qed.

  (* every resolved reference of a consistent node is served: by the store, or by a consistent producer *)
  Definition Served (sg : dg) (v : rv) : Prop :=
    Ext sg v \/
    exists g A R pv k c R1, LCons g A R pv k /\ cana hv hl g A R = inr (c, R1) /\ sg = enc c /\ fst (pvl_fn g pv k) = Ret v.
  Definition Resp (R : sresolved) (k : kenv) : Prop :=
    forall p sg, srlookup p R = Some sg -> exists v, k p = Some v /\ Served sg v.

  Lemma Served_node : forall {g A R pv k c R1 v}, LCons g A R pv k -> cana hv hl g A R = inr (c, R1) ->
    fst (pvl_fn g pv k) = Ret v -> Served (enc c) v.
  Proof. intros g A R pv k c R1 v HC Hc Hv. right. exists g, A, R, pv, k, c, R1. repeat split; assumption. Qed.

  Lemma Resp_upd : forall {R k} o {sg v}, Resp R k -> Served sg v -> Resp (srupd_opt o sg R) (kupd_opt o v k).
  Proof.
    intros R k [q|] sg v HR Hs; [|exact HR]. intros p sg0 Hl. cbn [srupd_opt kupd_opt] in *.
    rewrite srlookup_srupdate in Hl. unfold kupd. destruct (bytes_eqb p q); [|exact (HR p sg0 Hl)].
    injection Hl as <-. exists v. split; [reflexivity|exact Hs].
  Qed.
  Lemma Resp_frame : forall {R R2 k}, (forall p, srlookup p R2 = srlookup p R) -> Resp R k -> Resp R2 k.
  Proof. intros R R2 k F HR p sg Hl. rewrite F in Hl. exact (HR p sg Hl). Qed.

  Lemma LCons_U : forall {g A R pv k}, LCons g A R pv k -> U g.
  Proof.
    intros g A R pv k H.
    induction H as [f named R0 pv k0 Hr|f Af Rf pvf kf vars exts sts af vs pre s post ch loads R1 en ks g kk ph named pv
                      Hf IH Hfb Hl _ _ _ _ Hg _ _ _ _].
    - exact (proj1 (u_root _ _ _ _ _ HU f named pv (ex_intro _ R0 (ex_intro _ k0 Hr)))).
    - destruct (site_ok HU IH Hfb Hl) as (_ & _ & _ & _ & Hcs).
      exact (proj1 (Forall_forall _ _) Hcs g (site_callee_in Hg)).
  Qed.

  Lemma pvl_steps_app : forall l1 l2 en k,
    pvl_steps (steps_of (l1 ++ l2)) en k =
    match pvl_steps (steps_of l1) en k with (inl o, k1) => (inl o, k1) | (inr en1, k1) => pvl_steps (steps_of l2) en1 k1 end.
  Proof.
    induction l1 as [|s r IH]; intros l2 en k; [reflexivity|].
    cbn [app steps_of]. rewrite !pvl_steps_cons. destruct (pvl_step s en k) as [[o|en1] k1]; [reflexivity|apply IH].
  Qed.

  (* the caller (SoundnessSite.caller) is consistent, started in the kept environment [k0], and has reached a step of its
     body, with [rest] ahead: the analysis with [acc], the plain execution with the environment [en] and the kept
     environment [k] *)
  Definition reaches (c : caller) (k0 : kenv) (pre rest : list step) (acc : cst3) (en : env) (k : kenv) : Prop :=
    LCons (cl_fn c) (cl_A c) (cl_R c) (cl_pv c) k0 /\ caller_wf hv c /\ analysed_to hv hl c pre acc /\
    pvl_steps (steps_of pre) (cl_env c) k0 = (inr en, k) /\ list_of_steps (cl_sts c) = pre ++ rest.

  Lemma reaches_snoc : forall {c k0 pre s rest acc en k acc' en' k'}, reaches c k0 pre (s :: rest) acc en k ->
    cl_step hv hl c s acc = inr acc' -> pvl_step s en k = (inr en', k') -> reaches c k0 (pre ++ [s]) rest acc' en' k'.
  Proof.
    intros c k0 pre s rest acc en k acc' en' k' (HC & Hwf & Ha & Hp & Hl) Hs Hx.
    refine (conj HC (conj Hwf (conj (analysed_snoc hv hl Ha Hs) (conj _ _)))); [|rewrite <- app_assoc; exact Hl].
    rewrite pvl_steps_app, Hp. cbn [steps_of]. rewrite pvl_steps_cons, Hx. reflexivity.
  Qed.

  (* a part of the body of a consistent caller keeps no path after loading it *)
  Lemma caller_lwf : forall {c k0 pre l post acc en k}, reaches c k0 pre (l ++ post) acc en k -> lwf_lsteps l.
  Proof.
    intros c k0 pre l post acc en k (HC & (Hb & _) & _ & _ & Hl). pose proof (l_wf HL _ (LCons_U HC)) as Hw. unfold lwf_fn in Hw.
    destruct (first_body_bodies Hb) as [r E]. rewrite E in Hw. cbn [body_steps] in Hw. rewrite Hl in Hw.
    exact (proj1 (lwf_lsteps_app _ _ (proj2 (lwf_lsteps_app _ _ (proj1 Hw))))).
  Qed.

  Lemma caller_step_ok : forall {c k0 pre s post acc en k}, reaches c k0 pre (s :: post) acc en k ->
    step_ok s /\ wf_step UVal (cs_of pre) s.
  Proof.
    intros c k0 pre s post acc en k Hre. pose proof (proj1 (caller_lwf (l := [s]) Hre)) as Hlw.
    destruct Hre as (HC & (Hb & _) & _ & _ & Hl). destruct (site_ok HU (LCons_U HC) Hb Hl) as (_ & _ & _ & Hw & Hc).
    exact (conj (conj (proj1 (Forall_forall _ _) Hc) Hlw) Hw).
  Qed.

  Lemma caller_callee : forall {c k0 pre s post ch l R en k g kk ph named pv}, reaches c k0 pre (s :: post) (ch, l, R) en k ->
    site_callee s = Some g -> site_end s = Some kk ->
    clines hl (firstn kk (fn_lines (cl_fn c))) = inr ph -> site_named hv s = inr named -> site_pv s en = Some pv ->
    LCons g (named, Some (Content ph (cl_a c) l ch (cl_exts c) (cl_vs c))) R pv k.
  Proof.
    intros c k0 pre s post ch l R en k g kk ph named pv (HC & (Hb & Ha & Hv) & Hca & Hex & Hl) Hg Hk Hph Hn Hpv.
    eapply LSite; eassumption.
  Qed.

  Lemma reaches_nil : forall {c k0 rest en}, caller_wf hv c -> LCons (cl_fn c) (cl_A c) (cl_R c) (cl_pv c) k0 -> cl_env c = en ->
    list_of_steps (cl_sts c) = rest -> reaches c k0 [] rest ([], [], cl_R c) en k0.
  Proof. intros c k0 rest en Hwf HC <- Hl. exact (conj HC (conj Hwf (conj eq_refl (conj eq_refl Hl)))). Qed.

  (* the served references are preserved: by a consistent node that returns, by the steps that a consistent caller runs *)
  Lemma SW_all :
    (forall g A R pv k c R1 v k1, LCons g A R pv k -> Resp R k ->
      cana hv hl g A R = inr (c, R1) -> pvl_fn g pv k = (Ret v, k1) -> Resp R1 (kupd_opt (fn_annot g) v k1)) /\
    (forall r c k0 pre post acc en k acc1 en1 k1, reaches c k0 pre (list_of_steps r ++ post) acc en k ->
      cl_steps hv hl c r acc = inr acc1 -> Resp (snd acc) k ->
      pvl_steps r en k = (inr en1, k1) -> Resp (snd acc1) k1) /\
    (forall s c k0 pre post acc en k acc1 en1 k1, reaches c k0 pre (s :: post) acc en k ->
      cl_step hv hl c s acc = inr acc1 -> Resp (snd acc) k ->
      pvl_step s en k = (inr en1, k1) -> Resp (snd acc1) k1).
  Proof.
    apply fn_site_ind.
    - (* a function that returns ran its body to the end: the node is the caller of its first step *)
      intros g IH A R pv k c R1 v k1 HC HR Hc Hv. pose proof (Served_node HC Hc (f_equal fst Hv)) as Sv. rewrite pvl_fn_body in Hv.
      destruct (first_body g) as [[vars exts sts]|] eqn:Eb; [|discriminate Hv]. rewrite pvl_body_eq in Hv. cbn [e_params] in Hv.
      destruct (cana_fn_steps_U (LCons_U HC) Hc Eb) as (a & vs & ch & loads & lh & Ra & Ha & Hvs & Hs & _ & HR1).
      pose proof (reaches_nil (c := Caller g A R pv vars exts sts a vs) (conj Eb (conj Ha Hvs)) HC eq_refl (eq_sym (app_nil_r _))) as Hre.
      destruct (pvl_steps sts _ k) as [[o|en] kb] eqn:Ex; injection Hv as Hv <-.
      + exfalso. exact (pvl_steps_not_ret Ex v Hv).
      + exact (Resp_frame HR1 (Resp_upd _ (IH vars exts sts eq_refl _ _ [] [] _ _ _ (ch, loads, Ra) _ _ Hre Hs HR Ex) Sv)).
    - intros c k0 pre post acc en k acc1 en1 k1 _ Hs HR He. injection Hs as <-. injection He as _ <-. exact HR.
    - intros s r IHs IHr c k0 pre post acc en k acc1 en1 k1 Hre Hs HR He.
      unfold cl_steps in Hs. rewrite cana_steps_cons in Hs. rewrite pvl_steps_cons in He.
      destruct (cana_step hv hl s _ _ _ _ acc) as [e|accm] eqn:Em; [discriminate Hs|].
      destruct (pvl_step s en k) as [[o|enm] km] eqn:Ex; [discriminate He|].
      exact (IHr c k0 (pre ++ [s]) post accm enm km acc1 en1 k1 (reaches_snoc Hre Em Ex) Hs (IHs _ _ _ _ _ _ _ _ _ _ Hre Em HR Ex) He).
    - (* a call site: the callee is consistent; its value is served at the paths it is kept at *)
      intros s g Hg IHg c k0 pre post [[ch l] R] en k [[ch1 l1] R1] en1 k1 Hre Hs HR He.
      destruct (caller_step_ok Hre) as [[_ Hlw] _]. destruct (site_has_end Hg) as [kk Hk].
      destruct (cana_site Hg Hk Hs) as (ph & named & cg & Rc & Hph & Hn & Hcg & _ & _ & ->).
      rewrite (pvl_step_site s g en k Hg) in He. cbn [snd]. destruct (site_runs s) eqn:Er.
      + destruct (site_pv s en) as [pv|] eqn:Epv; [|discriminate He].
        pose proof (caller_callee Hre Hg Hk Hph Hn Epv) as HCg. unfold pvl_call in He.
        destruct (pvl_fn g pv k) as [[v| | |] kc] eqn:Eo; try discriminate He. injection He as _ <-.
        rewrite (site_kpath_eq v kc Hlw Hg). exact (Resp_upd _ (IHg _ _ _ _ _ _ _ _ HCg HR Hcg Eo) (Served_node HCg Hcg (f_equal fst Eo))).
      + injection He as _ <-. destruct (proj2 (lwf_site Hlw Hg) Er) as [-> Hreg]. apply (Resp_frame (R := R)); [|exact HR].
        intros p. apply (cana_frame hv hl _ _ _ _ _ Hcg). rewrite Hreg. intros [].
    - intros g _ c k0 pre post acc en k acc1 en1 k1 Hre. destruct (proj2 (proj1 (caller_step_ok Hre))).
    - intros p c k0 pre post [[ch l] R] en k acc1 en1 k1 _ Hs HR He. unfold cl_step in Hs. rewrite cana_step_SLoad in Hs.
      destruct (srlookup p R); [|discriminate Hs]. injection Hs as <-. rewrite pvl_step_load in He.
      destruct (k p); [injection He as _ <-; exact HR|discriminate He].
  Qed.

  Lemma reaches_Resp : forall {c k0 pre post acc en k}, reaches c k0 pre post acc en k -> Resp (cl_R c) k0 -> Resp (snd acc) k.
  Proof.
    intros c k0 pre post acc en k (HC & Hwf & Ha & Hp & Hl) HR. rewrite <- (list_of_steps_of pre) in Hl.
    exact (proj1 (proj2 SW_all) (steps_of pre) c k0 [] post _ _ _ acc en k (reaches_nil Hwf HC eq_refl Hl) Ha HR Hp).
  Qed.

  Theorem LCons_Resp : forall g A R pv k, LCons g A R pv k -> Resp R k.
  Proof.
    intros g A R pv k H.
    induction H as [f named R0 pv k0 Hr|f Af Rf pvf kf vars exts sts af vs pre s post ch loads R1 en ks g kk ph named pv
                      Hf IH Hfb Hl Haf Hvs Hca Hex Hg Hk Hph Hn Hpv].
    - intros p sg Hp. destruct (l_root HL _ _ _ _ _ Hr p sg Hp) as (v & Hv & He). exists v. split; [exact Hv|left; exact He].
    - exact (reaches_Resp (c := Caller f Af Rf pvf vars exts sts af vs) (conj Hf (conj (conj Hfb (conj Haf Hvs)) (conj Hca (conj Hex Hl)))) IH).
  Qed.

  (* at a path that the steps do not register, the recorded loads keep agreeing with the resolved references: a load
     records what it finds, the other steps record nothing *)
  Lemma loads_agree : forall {r lines a exts vs ch l R ch1 l1 R1 p},
    cana_steps hv hl r lines a exts vs (ch, l, R) = inr (ch1, l1, R1) ->
    ~ In p (reg_steps r) -> srlookup p l = srlookup p R -> srlookup p l1 = srlookup p R1.
  Proof.
    induction r as [|s r IH]; intros lines a exts vs ch l R ch1 l1 R1 p Hc Hn E.
    - injection Hc as _ <- <-. exact E.
    - rewrite cana_steps_cons in Hc. cbn [reg_steps] in Hn.
      destruct (cana_step hv hl s lines a exts vs (ch, l, R)) as [e|[[chm lm] Rm]] eqn:Em; [discriminate Hc|].
      apply (IH _ _ _ _ _ _ _ _ _ _ p Hc); [intro Hx; apply Hn, in_or_app; right; exact Hx|].
      rewrite (cana_step_frame hv hl _ _ _ _ _ _ _ _ _ _ _ Em p (fun Hx => Hn (in_or_app _ _ _ (or_introl Hx)))).
      destruct (site_callee s) as [g|] eqn:Hg.
      + destruct (site_has_end Hg) as [k Hk]. destruct (cana_site Hg Hk Em) as (_ & _ & _ & _ & _ & _ & _ & _ & -> & _). exact E.
      + destruct s as [| |g| |q]; try discriminate Hg.
        * rewrite cana_step_SApply in Em. injection Em as _ <- _. exact E.
        * rewrite cana_step_SLoad in Em. destruct (srlookup q R) as [sg|] eqn:Er; [|discriminate Em]. injection Em as _ <- _.
          rewrite srlookup_srupdate. destruct (bytes_eqb_spec p q) as [->|_]; [symmetry; exact Er|exact E].
  Qed.
  (* a load by a consistent caller, whose body keeps no path after loading it: the signature found is the one recorded at
     the end, and the path holds a value that this signature serves *)
  Lemma caller_load : forall {c k0 pre q r post ch l R en k ch1 l1 R1},
    reaches c k0 pre (SLoad q :: list_of_steps r ++ post) (ch, l, R) en k ->
    cl_steps hv hl c (SCons (SLoad q) r) (ch, l, R) = inr (ch1, l1, R1) ->
    exists sg v, srlookup q l1 = Some sg /\ k q = Some v /\ Served sg v.
  Proof.
    intros c k0 pre q r post ch l R en k ch1 l1 R1 Hre Hc.
    pose proof (proj1 (proj2 (caller_lwf (l := SLoad q :: list_of_steps r) Hre))) as Hn. rewrite <- reg_steps_l in Hn.
    unfold cl_steps in Hc. rewrite cana_steps_cons, cana_step_SLoad in Hc.
    destruct (srlookup q R) as [sg|] eqn:Hq; [|discriminate Hc].
    destruct (reaches_Resp Hre (LCons_Resp _ _ _ _ _ (proj1 Hre)) q sg Hq) as (v & Hk & Sv). exists sg, v.
    split; [|exact (conj Hk Sv)].
    rewrite (loads_agree Hc Hn), (cana_steps_frame hv hl _ _ _ _ _ _ _ _ _ _ _ Hc q Hn); [exact Hq|].
    rewrite srlookup_srupdate_same. symmetry. exact Hq.
  Qed.

  Lemma LCons_kmatch : forall {g named site R pv k}, LCons g (named, site) R pv k -> args_known named = true ->
    kmatch hv UVal named pv.
  Proof.
    intros g named site R pv k H K.
    inversion H as [f nm R0 p0 k0 Hr|f Af Rf pvf kf vars exts sts af vs pre s post ch loads R1 en ks g0 kk ph nm p0
                      Hf Hfb Hl Haf Hvs _ _ Hg _ _ Hn Hpv]; subst.
    - exact (proj2 (u_root _ _ _ _ _ HU g named pv (ex_intro _ R (ex_intro _ k Hr)))).
    - destruct (site_ok HU (LCons_U Hf) Hfb Hl) as (_ & _ & _ & Hws & _).
      destruct (u_wf _ _ _ _ _ HU g (LCons_U H)) as (Hps & _).
      exact (site_kmatch hv UVal (cs_of pre) s g en named pv Hws Hg Hps Hn Hpv K).
  Qed.

  Lemma args_determined_known_L : forall {g g' named named' site site' R R' pv pv' k k' a},
    LCons g (named, site) R pv k -> LCons g' (named', site') R' pv' k' -> args_known named = true ->
    cargs (named, site) = inr a -> cargs (named', site') = inr a -> pv = pv'.
  Proof.
    intros g g' named named' site site' R R' pv pv' k k' a H H' K Ha Ha'.
    pose proof (cargs_same_known K Ha Ha') as ->.
    exact (kmatch_inj HU (LCons_kmatch H K) (LCons_kmatch H' K)).
  Qed.

  (* Theorem A with loads, by induction on the size of the signature term: the signature found at a loaded path, the
     children and the call site of a content are strict sub-terms *)
  Definition ABelow (n : nat) : Prop := forall g g' A A' R R' pv pv' k k' c R1 R1', dsize (enc c) < n ->
    LCons g A R pv k -> LCons g' A' R' pv' k' ->
    cana hv hl g A R = inr (c, R1) -> cana hv hl g' A' R' = inr (c, R1') ->
    fst (pvl_fn g pv k) = fst (pvl_fn g' pv' k').

  Section BoundA.
    Variable n : nat.
    Hypothesis IHn : ABelow n.

    Lemma Served_fun_below : forall sg v v', dsize sg < n -> Served sg v -> Served sg v' -> v = v'.
    Proof.
      intros sg v v' Hn [He|(g & A & R & pv & k & c & R1 & HC & Hc & Es & Hv)] [He'|(g' & A' & R' & pv' & k' & c' & R1' & HC' & Hc' & Es' & Hv')].
      - exact (l_ext_fun HL _ _ _ He He').
      - exfalso. destruct (l_ext_leaf HL _ _ He) as [b Eb]. subst sg. destruct c'. rewrite enc_eq in Eb. discriminate Eb.
      - exfalso. destruct (l_ext_leaf HL _ _ He') as [b Eb]. subst sg. destruct c. rewrite enc_eq in Eb. discriminate Eb.
      - subst sg. apply enc_injective in Es'. subst c'.
        pose proof (IHn g g' A A' R R' pv pv' k k' c R1 R1' Hn HC HC' Hc Hc') as E. rewrite Hv, Hv' in E. injection E as E. exact E.
    Qed.

    (* A1 with loads.  Two consistent callers have reached, in the same environment, steps with the same skeleton; the
       two analyses go from the same children to the same children and the same recorded loads: the same outcome *)
    Lemma A1L_steps : forall r r' cs cs' c c' k0 k0' pre pre' post post' ch l l' R R' en k k' ch1 l1 R1 R1',
      reaches c k0 pre (list_of_steps r ++ post) (ch, l, R) en k -> reaches c' k0' pre' (list_of_steps r' ++ post') (ch, l', R') en k' ->
      skel_lsteps cs (list_of_steps r) = skel_lsteps cs' (list_of_steps r') ->
      cl_steps hv hl c r (ch, l, R) = inr (ch1, l1, R1) -> cl_steps hv hl c' r' (ch, l', R') = inr (ch1, l1, R1') ->
      (forall c0, In c0 ch1 -> dsize (enc c0) < n) -> (forall p sg, srlookup p l1 = Some sg -> dsize sg < n) ->
      fst (pvl_steps r en k) = fst (pvl_steps r' en k').
    Proof.
      induction r as [|s r IHr]; intros [|s' r'] cs cs' c c' k0 k0' pre pre' post post' ch l l' R R' en k k' ch1 l1 R1 R1'
                                        Hre Hre' Hsk H1 H2 Hbc Hbl; try discriminate Hsk; [reflexivity|].
      cbn [list_of_steps skel_lsteps] in Hsk. injection Hsk as Hsk1 Hsk2.
      destruct (cana_steps_cons_mid H1) as (lm & Rm & Em & H1r). destruct (cana_steps_cons_mid H2) as (lm' & Rm' & Em' & H2r).
      rewrite <- (skel_step_acallee_len _ _ _ _ Hsk1) in Em', H2r.
      assert (Ho : fst (pvl_step s en k) = fst (pvl_step s' en k')).
      { destruct (site_callee s) as [g|] eqn:Hg.
        - (* a call site: the callees are consistent, have the same smaller content and receive the same values *)
          destruct (skel_step_site Hsk1 Hg) as (g' & Hg' & _ & Eruns).
          destruct (site_has_end Hg) as [kk Hk]. destruct (site_has_end Hg') as [kk' Hk'].
          destruct (cana_site Hg Hk Em) as (ph & named & cg & Rc & Hph & Hn & Hc & E & _).
          destruct (cana_site Hg' Hk' Em') as (ph' & named' & cg' & Rc' & Hph' & Hn' & Hc' & E' & _).
          rewrite E in E'. apply app_inv_head in E'. injection E' as <-.
          pose proof (proj1 (proj1 (caller_step_ok Hre)) g (site_callee_in Hg)) as Ug.
          pose proof (proj1 (proj1 (caller_step_ok Hre')) g' (site_callee_in Hg')) as Ug'.
          pose proof (same_content_skel HU Ug Ug' Hc Hc') as Hskg. injection Hskg as _ _ Hp _ _ _.
          rewrite (pvl_step_site s g en k Hg), (pvl_step_site s' g' en k' Hg'), Eruns. destruct (site_runs s); [|reflexivity].
          pose proof (site_pv_skel en Hsk1 Hg Hg' Hp) as Epv'.
          destruct (site_pv s en) as [pv|] eqn:Epv; rewrite <- Epv'; [|reflexivity]. cbn [pvl_call].
          assert (Hin : In cg ch1) by (eapply firstn_In; rewrite E; apply in_or_app; right; left; reflexivity).
          pose proof (IHn g g' _ _ _ _ pv pv k k' cg Rc Rc' (Hbc cg Hin)
                          (caller_callee Hre Hg Hk Hph Hn Epv) (caller_callee Hre' Hg' Hk' Hph' Hn' (eq_sym Epv')) Hc Hc') as Ho.
          destruct (pvl_fn g pv k) as [o kc]. destruct (pvl_fn g' pv k') as [o' kc']. cbn [fst] in Ho. subst o'. destruct o; reflexivity.
        - destruct s as [| |g| |p]; try discriminate Hg; [destruct (proj2 (proj1 (caller_step_ok Hre)))|].
          (* a load: the two loads find what is recorded at the end, the same small signature for both; it serves one value *)
          destruct s'; try discriminate Hsk1. injection Hsk1 as <-.
          destruct (caller_load Hre H1) as (sg & v & L1 & Hk & Sv). destruct (caller_load Hre' H2) as (sg' & v' & L2 & Hk' & Sv').
          rewrite L1 in L2. injection L2 as <-.
          rewrite !pvl_step_load, Hk, Hk', (Served_fun_below sg v v' (Hbl p sg L1) Sv Sv'). reflexivity. }
      rewrite !pvl_steps_cons.
      destruct (pvl_step s en k) as [x km] eqn:Ex. destruct (pvl_step s' en k') as [x' km'] eqn:Ex'. cbn [fst] in Ho. subst x'.
      destruct x as [o|en1]; [reflexivity|].
      eapply IHr; [exact (reaches_snoc Hre Em Ex)|exact (reaches_snoc Hre' Em' Ex')|eassumption ..].
    Qed.

    (* ... of two consistent nodes that receive the same values, from the start of their bodies *)
    Lemma A1L_bodies : forall {f f' Af Af' Rf Rf' pvf kf kf' vars vars' exts sts sts' af vs pre pre' post post' ch loads R1 R1'},
      LCons f Af Rf pvf kf -> LCons f' Af' Rf' pvf kf' ->
      caller_wf hv (Caller f Af Rf pvf vars exts sts af vs) -> caller_wf hv (Caller f' Af' Rf' pvf vars' exts sts' af vs) ->
      list_of_steps sts = pre ++ post -> list_of_steps sts' = pre' ++ post' -> skel_lsteps [] pre = skel_lsteps [] pre' ->
      cana_steps hv hl (steps_of pre) (fn_lines f) af exts vs ([], [], Rf) = inr (ch, loads, R1) ->
      cana_steps hv hl (steps_of pre') (fn_lines f') af exts vs ([], [], Rf') = inr (ch, loads, R1') ->
      (forall c0, In c0 ch -> dsize (enc c0) < n) -> (forall p sg, srlookup p loads = Some sg -> dsize sg < n) ->
      fst (pvl_steps (steps_of pre) (Env pvf (map snd vars) []) kf) = fst (pvl_steps (steps_of pre') (Env pvf (map snd vars') []) kf').
    Proof.
      intros f f' Af Af' Rf Rf' pvf kf kf' vars vars' exts sts sts' af vs pre pre' post post' ch loads R1 R1'
             Hf Hf' Hw Hw' Hl Hl' Hsk Hca Hca' Hbc Hbl.
      pose proof Hw as (Hb & _ & Hvs). pose proof Hw' as (Hb' & _ & Hvs').
      destruct (body_ok HU (LCons_U Hf) Hb) as [[Hwv _] _]. destruct (body_ok HU (LCons_U Hf') Hb') as [[Hwv' _] _].
      pose proof (cvars_values HU Hvs Hvs' Hwv Hwv') as Evars. cbn [body_vars cl_vars] in Evars. rewrite <- Evars.
      (* each node is the caller of the first step of its body; the rest is read off the hypotheses *)
      eapply A1L_steps;
        [apply (reaches_nil Hw Hf eq_refl)
        |apply (reaches_nil Hw' Hf' (f_equal (fun x => Env pvf x []) (eq_sym Evars)))
        |..]; rewrite ?list_of_steps_of; eassumption.
    Qed.

    (* A2 with loads: the same argument content binds the same values *)
    Lemma args_determined_L : forall g A R pv k, LCons g A R pv k -> forall g' A' R' pv' k' a, LCons g' A' R' pv' k' ->
      cargs A = inr a -> cargs A' = inr a -> small_args n a -> fn_params g = fn_params g' -> pv = pv'.
    Proof.
      intros g A R pv k H. pose proof H as H0.
      induction H as [f named R0 pv k0 Hr|f Af Rf pvf kf vars exts sts af vs pre s post ch loads R1 en ks g kk ph named pv
                        Hf IH Hfb Hl Haf Hvs Hca Hex Hg Hk Hph Hn Hspv]; intros g' [named' site'] R' pv' k' a H' Ha Ha' Hsz Hp.
      - apply (args_determined_known_L (a := a) H0 H'); try assumption.
        exact (kmatch_known (proj2 (u_root _ _ _ _ _ HU f named pv (ex_intro _ R0 (ex_intro _ k0 Hr))))).
      - destruct (args_known named) eqn:K; [exact (args_determined_known_L H0 H' K Ha Ha')|].
        destruct (cargs_same_unknown K Ha Ha') as [-> ->].
        inversion H' as [|f' Af' Rf' pvf' kf' vars' exts' sts' af' vs' pre' s' post' ch' loads' R1' en' ks' g0 kk' ph' nm p0
                           Hf' Hfb' Hl' Haf' Hvs' Hca' Hex' Hg' Hk' Hph' Hn' Hspv' E1 E2 E3 E4 E5]; subst.
        pose (cl := Caller f Af Rf pvf vars exts sts af vs). pose (cl' := Caller f' Af' Rf' pvf' vars' exts sts' af vs).
        pose proof (conj Hfb (conj Haf Hvs) : caller_wf hv cl) as Hw. pose proof (conj Hfb' (conj Haf' Hvs') : caller_wf hv cl') as Hw'.
        destruct (site_skel HU cl cl' (LCons_U Hf) (LCons_U Hf') Hw Hw' Hca Hca' Hl Hl' Hk Hk' Hph Hph') as (Hpf & Hskp & Hsks).
        destruct (content_small ph af loads ch exts vs n (or_intror (Nat.lt_le_incl _ _ Hsz))) as (Hbl & Hbc & Hszf).
        (* the callers received the same values, and reach the call in the same environment *)
        pose proof (IH Hf f' Af' Rf' pvf' kf' af Hf' Haf Haf' Hszf Hpf). subst pvf'.
        pose proof (A1L_bodies Hf Hf' Hw Hw' Hl Hl' Hskp Hca Hca' Hbc Hbl) as HA1. rewrite Hex, Hex' in HA1. injection HA1 as <-.
        rewrite (site_pv_skel en Hsks Hg Hg' Hp), Hspv' in Hspv. injection Hspv as <-. reflexivity.
    Qed.

    (* Theorem A with loads, for contents whose signature term has size at most n *)
    Lemma content_determines_value_below : ABelow (S n).
    Proof.
      intros g g' A A' R R' pv pv' k k' c R1 R1' Hsz HC HC' H1 H2.
      pose proof (LCons_U HC) as Ug. pose proof (LCons_U HC') as Ug'.
      pose proof (same_content_skel HU Ug Ug' H1 H2) as Hsk. injection Hsk as Et Er Ep _ _ _. rewrite !pvl_fn_body, <- Et, <- Er.
      destruct (same_content_bodies HU Ug Ug' H1 H2)
        as [[-> ->]|(vars & vars' & exts & sts & sts' & a & vs & ch & loads & lh & Ra & Ra' & Eb & Eb' & Es & Ha & Ha' & Ev & Ev' & Hs & Hs' & Hc1)];
        [reflexivity|].
      rewrite Eb, Eb'.
      destruct (content_small _ _ _ _ _ _ n (or_introl (body_content_small _ _ _ n Hc1 (proj1 (Nat.lt_succ_r _ _) Hsz)))) as (Hbl & Hbc & Hsza).
      destruct (args_determined_L g A R pv k HC g' A' R' pv' k' a HC' Ha Ha' Hsza Ep).
      rewrite <- (steps_of_list sts) in Hs. rewrite <- (steps_of_list sts') in Hs'.
      pose proof (A1L_bodies HC HC' (conj Eb (conj Ha Ev)) (conj Eb' (conj Ha' Ev')) (eq_sym (app_nil_r _)) (eq_sym (app_nil_r _)) Es Hs Hs' Hbc Hbl) as Ho.
      rewrite !steps_of_list in Ho. rewrite !pvl_body_eq. cbn [e_params].
      destruct (pvl_steps sts _ k) as [x kb]. destruct (pvl_steps sts' _ k') as [x' kb']. cbn [fst] in Ho. subst x'. destruct x; reflexivity.
    Qed.
  End BoundA.

  Lemma ABelow_all : forall n, ABelow n.
  Proof.
    induction n as [|n IH]; [intros g g' A A' R R' pv pv' k k' c R1 R1' Hsz; inversion Hsz|exact (content_determines_value_below n IH)].
  Qed.

  (* THEOREM A WITH LOADS.  Two consistent analysed nodes of a universe with loads whose contents are equal - the
     content includes, for every load, the path and the signature found there - have the same plain outcome. *)
  Theorem content_determines_value_loads : forall g g' A A' R R' pv pv' k k' c R1 R1',
    LCons g A R pv k -> LCons g' A' R' pv' k' ->
    cana hv hl g A R = inr (c, R1) -> cana hv hl g' A' R' = inr (c, R1') ->
    fst (pvl_fn g pv k) = fst (pvl_fn g' pv' k').
  Proof.
    intros g g' A A' R R' pv pv' k k' c R1 R1'.
    exact (ABelow_all (S (dsize (enc c))) g g' A A' R R' pv pv' k k' c R1 R1' (Nat.lt_succ_diag_r _)).
  Qed.

  Corollary Served_functional : forall sg v v', Served sg v -> Served sg v' -> v = v'.
  Proof. intros sg v v'. exact (Served_fun_below _ (ABelow_all _) sg v v' (Nat.lt_succ_diag_r _)). Qed.
End TheoremAL.

Arguments LCons_U {hv hl UVal U RootL Ext} HL {g A R pv k}.
Arguments cana_fn_steps_U {hv hl UVal U RootL Ext} HL {g A R c R1 vars exts sts}.
Arguments caller_step_ok {hv hl UVal U RootL Ext} HL {c k0 pre s post acc en k}.
Arguments caller_callee {hv hl RootL c k0 pre s post ch l R en k g kk ph named pv}.
Arguments reaches_snoc {hv hl RootL c k0 pre s rest acc en k acc' en' k'}.
Arguments reaches_nil {hv hl RootL c k0 rest en}.
