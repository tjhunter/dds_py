(* Correctness of the model of FunctionInteractionsUtils.non_terminal_leaves (Overlap.v):
   the result is non-empty exactly when one of the given paths is a strict (segment-wise) prefix of
   another one.  Order independence of the verdict is a corollary. *)
From Coq Require Import List Ascii String Bool Arith Lia Permutation.
From DDS Require Import Base.Bytes Base.BytesFacts L4_Eval.Overlap.
Import ListNotations.

Lemma nonnil_In : forall {A} (l : list A), l <> [] <-> exists x, In x l.
Proof.
  intros A [|a l]; simpl; split; try congruence; [intros [x []] | eauto].
Qed.

Lemma filter_length_compl : forall {A} (f : A -> bool) l,
  List.length (filter f l) + List.length (filter (fun x => negb (f x)) l) = List.length l.
Proof.
  intros A f l. induction l as [|a l IH]; simpl; [reflexivity|]. destruct (f a); simpl; lia.
Qed.

(* the members of the first group with key k: that is where ginsert appends, so everything inserted under k is there *)
Fixpoint gget (k : seg) (g : list (seg * list spath)) : list spath :=
  match g with [] => [] | (k', l) :: r => if bytes_eqb k k' then l else gget k r end.

Lemma gget_ginsert : forall k v g k',
  gget k' (ginsert k v g) = if bytes_eqb k' k then gget k' g ++ [v] else gget k' g.
Proof.
  intros k v g k'. induction g as [|[k0 l0] g IH]; simpl.
  - destruct (bytes_eqb k' k); reflexivity.
  - destruct (bytes_eqb_spec k k0) as [<-|Hne]; simpl.
    + destruct (bytes_eqb k' k); reflexivity.
    + destruct (bytes_eqb_spec k' k0) as [->|]; [|exact IH].
      rewrite (proj2 (bytes_eqb_neq k0 k)); congruence.
Qed.

Lemma gget_In : forall k g v, In v (gget k g) -> In (k, gget k g) g.
Proof.
  intros k g v. induction g as [|[k0 l0] g IH]; simpl; [tauto|].
  destruct (bytes_eqb_spec k k0) as [<-|_]; auto.
Qed.

Lemma ginsert_sound : forall k v g k' l' x,
  In (k', l') (ginsert k v g) -> In x l' -> (k', x) = (k, v) \/ exists l0, In (k', l0) g /\ In x l0.
Proof.
  intros k v g k' l' x. induction g as [|[k0 l0] g IH]; simpl.
  - intros [[= <- <-]|[]] [->|[]]. auto.
  - destruct (bytes_eqb_spec k k0) as [<-|_]; simpl; intros [[= <- <-]|H] Hx; eauto.
    + apply in_app_or in Hx. destruct Hx as [Hx|[->|[]]]; eauto.
    + destruct (IH H Hx) as [?|[l1 [? ?]]]; eauto.
Qed.

Lemma group_snoc : forall l k v, group (l ++ [(k, v)]) = ginsert k v (group l).
Proof. intros l k v. unfold group. rewrite fold_left_app. reflexivity. Qed.

Lemma group_sound : forall l k vs v, In (k, vs) (group l) -> In v vs -> In (k, v) l.
Proof.
  induction l as [|[k0 v0] l IH] using rev_ind; intros k vs v Hin Hv; [destruct Hin|].
  rewrite group_snoc in Hin. apply in_or_app.
  destruct (ginsert_sound _ _ _ _ _ _ Hin Hv) as [->|[l0 [H1 H2]]]; simpl; eauto.
Qed.

Lemma group_gget : forall l k v, In (k, v) l -> In v (gget k (group l)).
Proof.
  induction l as [|[k0 v0] l IH] using rev_ind; intros k v H; [destruct H|].
  rewrite group_snoc, gget_ginsert. apply in_app_or in H. destruct H as [H|[[= -> ->]|[]]].
  - apply IH in H. destruct (bytes_eqb k k0); [apply in_or_app|]; auto.
  - rewrite bytes_eqb_refl. apply in_or_app. simpl; auto.
Qed.

Lemma group_same : forall l a b, In a l -> In b l -> fst a = fst b ->
  exists vs, In (fst a, vs) (group l) /\ In (snd a) vs /\ In (snd b) vs.
Proof.
  intros l [k v1] [k' v2] Ha Hb E. simpl in *. subst k'. apply group_gget in Ha, Hb.
  exists (gget k (group l)). split; [eapply gget_In; eassumption | split; assumption].
Qed.

Lemma nonroot_split : forall p, normal p = true -> is_root p = false ->
  segs p = fst (psplit p) :: segs (snd (psplit p)) /\ normal (snd (psplit p)) = true.
Proof.
  intros p Hn Hr. unfold segs at 1. unfold normal in Hn. rewrite Hr in *.
  destruct p as [|s [|a r]]; [discriminate Hr | split; reflexivity |].
  simpl in Hn. apply andb_true_iff in Hn. destruct Hn as [_ Hn].
  (* the tail a :: r starts with a non-empty segment: it is not a root *)
  destruct a; [discriminate Hn|]. unfold segs, normal. simpl psplit.
  destruct r; (split; [reflexivity | exact Hn]).
Qed.

Lemma strict_prefix_nil_r : forall p, strict_prefix p [] = false.
Proof. intro p. unfold strict_prefix. destruct p; reflexivity. Qed.

Lemma strict_prefix_cons : forall a x b y,
  strict_prefix (a :: x) (b :: y) = true <-> a = b /\ strict_prefix x y = true.
Proof.
  intros a x b y. unfold strict_prefix. cbn [is_prefix List.length].
  rewrite !andb_true_iff, bytes_eqb_eq, !Nat.ltb_lt, <- Nat.succ_lt_mono. tauto.
Qed.

Lemma strict_prefix_root : forall p q, is_root p = true -> is_root q = false ->
  strict_prefix (segs p) (segs q) = true.
Proof. intros p q Hp Hq. unfold segs. rewrite Hp, Hq. destruct q; [discriminate Hq | reflexivity]. Qed.

Definition overlaps (paths : list spath) : Prop :=
  exists p q, In p paths /\ In q paths /\ strict_prefix (segs p) (segs q) = true.

(* the test for "some path ends here and some path goes on" *)
Lemma here_iff : forall paths,
  Nat.ltb (List.length (filter (fun p => negb (is_root p)) paths)) (List.length paths)
    && Nat.ltb 0 (List.length (filter (fun p => negb (is_root p)) paths)) = true <->
  (exists p, In p paths /\ is_root p = true) /\ (exists q, In q paths /\ is_root q = false).
Proof.
  intro paths. pose proof (filter_length_compl is_root paths) as Hc.
  rewrite andb_true_iff, !Nat.ltb_lt.
  transitivity (filter is_root paths <> [] /\ filter (fun p => negb (is_root p)) paths <> []).
  - rewrite <- !length_zero_iff_nil. lia.
  - rewrite !nonnil_In. setoid_rewrite filter_In. setoid_rewrite negb_true_iff. reflexivity.
Qed.

(* Below the first level a path is seen through [segs]: a root stands for the empty sequence, psplit takes the head
   off the others, and the sub-call for head k receives exactly the tails of the paths that start with k. *)
Lemma ntl_spec : forall fuel paths prefix,
  (forall p, In p paths -> normal p = true /\ List.length (segs p) < fuel) ->
  ((exists y, In y (ntl fuel paths prefix)) <-> overlaps paths).
Proof.
  induction fuel as [|f IH]; intros paths prefix Hp.
  - split; [intros [y []] | intros [p [_ [Hin _]]]; destruct (Hp p Hin); lia].
  - cbn [ntl]. set (ne := filter (fun p => negb (is_root p)) paths).
    assert (Hne : forall p, In p paths -> is_root p = false -> In (psplit p) (map psplit ne)).
    { intros p Hin Hr. apply in_map. apply filter_In. rewrite Hr. auto. }
    assert (Hsub : forall k l t, In (k, l) (group (map psplit ne)) -> In t l ->
              exists p, In p paths /\ segs p = k :: segs t /\ normal t = true /\ List.length (segs t) < f).
    { intros k l t Hkl Ht. apply (group_sound _ _ _ _ Hkl) in Ht.
      apply in_map_iff in Ht. destruct Ht as [p [Ep Hin]]. apply filter_In in Hin. destruct Hin as [Hin Hr].
      apply negb_true_iff in Hr. destruct (Hp p Hin) as [Hn Hl].
      destruct (nonroot_split p Hn Hr) as [Es Hnt]. rewrite Ep in Es, Hnt. rewrite Es in Hl.
      exists p. simpl in Hl. repeat split; auto. lia. }
    assert (Hrec : forall k l, In (k, l) (group (map psplit ne)) ->
              ((exists y, In y (ntl f l (Some (sub_prefix prefix k)))) <-> overlaps l)).
    { intros k l Hkl. apply IH. intros t Ht. destruct (Hsub k l t Hkl Ht) as [_ [_ [_ H]]]. exact H. }
    split.
    + intros [y Hy]. apply in_app_or in Hy. destruct Hy as [Hy|Hy].
      * destruct (Nat.ltb _ _ && _) eqn:Ec; [|destruct Hy].
        apply here_iff in Ec. destruct Ec as [[p [Hin Rp]] [q [Hq Rq]]].
        exists p, q. auto using strict_prefix_root.
      * apply in_flat_map in Hy. destruct Hy as [[k l] [Hkl Hy]].
        destruct (proj1 (Hrec k l Hkl) (ex_intro _ y Hy)) as [p' [q' [Hp' [Hq' Hs]]]].
        destruct (Hsub k l p' Hkl Hp') as [p [Hin [Ep _]]]. destruct (Hsub k l q' Hkl Hq') as [q [Hq [Eq _]]].
        exists p, q. rewrite Ep, Eq. repeat split; auto. apply strict_prefix_cons. auto.
    + intros [p [q [Hin [Hq Hs]]]].
      destruct (is_root q) eqn:Rq; [unfold segs in Hs; rewrite Rq, strict_prefix_nil_r in Hs; discriminate Hs|].
      destruct (is_root p) eqn:Rp.
      * unfold ne. rewrite (proj2 (here_iff paths)) by (split; eauto). simpl. eauto.
      * destruct (nonroot_split p (proj1 (Hp p Hin)) Rp) as [Ep _].
        destruct (nonroot_split q (proj1 (Hp q Hq)) Rq) as [Eq _].
        rewrite Ep, Eq in Hs. apply strict_prefix_cons in Hs. destruct Hs as [Ek Hs].
        destruct (group_same _ _ _ (Hne p Hin Rp) (Hne q Hq Rq) Ek) as [l [Hkl [H1 H2]]].
        destruct (proj2 (Hrec _ l Hkl)) as [y Hy]; [exists (snd (psplit p)), (snd (psplit q)); auto|].
        exists y. apply in_or_app. right. apply in_flat_map. exists (fst (psplit p), l). auto.
Qed.

Lemma max_len_ge : forall paths p, In p paths -> List.length p <= max_len paths.
Proof.
  induction paths as [|a paths IH]; simpl; intros p H; [contradiction|].
  destruct H as [->|H]; [|specialize (IH p H)]; lia.
Qed.

Theorem non_terminal_leaves_spec : forall paths,
  forallb normal paths = true -> (non_terminal_leaves paths <> [] <-> overlaps paths).
Proof.
  intros paths Hn. unfold non_terminal_leaves. rewrite nonnil_In. apply ntl_spec.
  intros p Hp. rewrite forallb_forall in Hn. split; [auto|].
  pose proof (max_len_ge paths p Hp). unfold segs. destruct (is_root p); simpl; lia.
Qed.

Theorem overlap_iff : forall paths,
  NoDup paths -> forallb normal paths = true ->
  (non_terminal_leaves paths <> [] <->
   exists p q, In p paths /\ In q paths /\ strict_prefix (segs p) (segs q) = true).
Proof. intros paths _. apply non_terminal_leaves_spec. Qed.

Corollary overlap_perm : forall l1 l2, Permutation l1 l2 -> NoDup l1 -> forallb normal l1 = true ->
  (non_terminal_leaves l1 <> [] <-> non_terminal_leaves l2 <> []).
Proof.
  intros l1 l2 HP _ Hn. pose proof (Permutation_sym HP) as HP'.
  assert (Hn2 : forallb normal l2 = true).
  { rewrite forallb_forall in *. intros x Hx. apply Hn. eapply Permutation_in; eassumption. }
  rewrite (non_terminal_leaves_spec l1 Hn), (non_terminal_leaves_spec l2 Hn2).
  split; intros [p [q [Hp [Hq Hs]]]]; exists p, q; eauto using Permutation_in.
Qed.

Example overlap_nonadjacent : non_terminal_leaves [[bs "f"]; [bs "g"]; [bs "f"; bs "h"]] <> [].
Proof. intro H. vm_compute in H. discriminate H. Qed.

Example no_overlap_example : non_terminal_leaves [[bs "f"; bs "a"]; [bs "g"]; [bs "f"; bs "h"]] = [].
Proof. vm_compute. reflexivity. Qed.

Print Assumptions overlap_iff.
Print Assumptions overlap_perm.
