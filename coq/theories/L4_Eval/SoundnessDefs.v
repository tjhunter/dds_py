(* Soundness of signatures: vocabulary.
   Goal of Soundness*.v: eliminate the hypotheses [sound_fn] / [root_sound] of EvalProofs.v in favour of explicit
   idealisation + well-formedness hypotheses about a UNIVERSE of programs ("signatures determine plain values").
   This file: skeletons, local well-formedness, the record of universe hypotheses [univ_ok], the relation
   [Cons] ("the parameter values pv are consistent with the argument context A of an analysed node").
   Every hypothesis is a field of [univ_ok] (or a premise of a theorem): nothing is an Axiom.
   Everything is stated over the CONTENT analysis of L3_Sig/SigTreeProofs.v, not over the byte-level [ana] of Sig.v.
   There [content] is what the signature of a node is meant to depend on; [cana hv hl f A R] computes it by the recursion
   of the symbolic analysis [sana] (SigTree.v), for a value hash hv, a line hash hl, an argument context [A : cargctx] =
   (named argument hashes, content of the call site) and resolved references R; [enc c] is the signature term of the
   content c (injective: [enc_injective]); [skey A] is the argument context of [sana] that stands for A, and [sana] on
   [skey A] returns [enc] of what [cana] returns on A ([sana_content]; for the step functions and their accumulators:
   [agree3], [AG_all]).  [hv0 H mx] / [hl0 H mx] are the real hashes over a digest function H, for which the rendering of
   [sana] is [ana] ([sana_faithful]); [ex_hv] / [ex_hl] are the readable toy hashes of the examples of that file.
   Every other Soundness file builds on this one: SoundnessSite.v, on it SoundnessA.v, on it Soundness.v; SoundnessLoadA.v
   on SoundnessSite.v and SoundnessA.v; SoundnessLoad.v on SoundnessLoadA.v and Soundness.v. *)
From Coq Require Import List Ascii String ZArith NArith Bool Lia.
From DDS Require Import Base.Bytes Extracted.ConstHash L0_Hash.PyVal L0_Hash.DdsHash L1_Args.ArgCtx
     L3_Sig.Program L3_Sig.Sig L3_Sig.SigTree L3_Sig.SigTreeProofs
     L4_Eval.Stages L4_Eval.DdsEval L4_Eval.EvalSpec L4_Eval.EvalProofs.
Import ListNotations.

(* ---------------------------------------------------------------------------------------------------------------- *)
(* 1. values behind argument hashes                                                                                  *)
(* ---------------------------------------------------------------------------------------------------------------- *)
(* fun_args.py hashes None (literal, default, or passed at top level) as the marker string: the value behind a hashed
   [w] is [unmark w].  (Finding F04-marker: the marker string itself, passed as a value, collides with None; the
   hypotheses [lit_ok] / [default_ok] / [rt_ok] below exclude it.) *)
Definition unmark (w : pyval) : pyval :=
  match w with VStr s => if bytes_eqb s default_marker then VNone else w | _ => w end.

Section Vocabulary.
  Variable hv : pyval -> hres.
  Variable hl : list bytes -> hres.
  Variable UVal : pyval -> Prop.     (* the values on which the value hash is assumed injective *)

  (* what is hashed for a literal / a default / a top-level argument is in UVal and can be read back *)
  Definition lit_ok (v : pyval) : Prop := UVal (subst_none v) /\ unmark (subst_none v) = v.
  Definition default_ok (d : pyval) : Prop := UVal (subst_default d) /\ unmark (subst_default d) = d.
  Definition rt_ok (v : pyval) : Prop := UVal (rt_value v) /\ unmark (rt_value v) = v.

  Definition params_ok (ps : list param) : Prop :=
    Forall (fun p => match p_default p with Some d => default_ok d | None => True end) ps.

  Definition kentry (nh : bytes * option bytes) (v : rv) : Prop :=
    exists h w, snd nh = Some h /\ hv w = HOk h /\ UVal w /\ v = RVal (unmark w).
  (* [kmatch named pv]: every argument is known, and its entry is the hash of a value of UVal that reads back as the
     actual parameter value *)
  Definition kmatch (named : list (bytes * option bytes)) (pv : list rv) : Prop := Forall2 kentry named pv.

  (* ---------------------------------------------------------------------------------------------------------------- *)
  (* 2. skeletons: what the TEXT of a function must determine                                                        *)
  (* ---------------------------------------------------------------------------------------------------------------- *)
  (* The analysed interactions of a body so far: [Some g] for a by-name mention of g (SRef), [None] for a call / keep.
     The position in this list is the index of the interaction in the signature (fun_dep_<i>). *)
  Definition acallee (s : step) : list (option fn) :=
    match s with
    | SCall _ _ _ _ | SKeep _ _ _ _ _ _ => [None]
    | SRef _ g _ => [Some g]
    | SApply _ | SLoad _ => []
    end.
  Definition cs_of (l : list step) : list (option fn) := flat_map acallee l.

  (* the earlier by-name mention that [apply(g)] refers to: the first one with the name of g *)
  Fixpoint find_name (n : bytes) (cs : list (option fn)) : option nat :=
    match cs with
    | [] => None
    | Some g :: r => if bytes_eqb n (fn_name g) then Some 0 else option_map S (find_name n r)
    | None :: r => option_map S (find_name n r)
    end.

  (* a step up to: line numbers, the callee sub-tree, ALit/ARun flags (covered by the content of the node or irrelevant
     for the plain value).  The paths of dds.keep / dds.load (literals of the text) are part of the skeleton: they
     matter for the plain meaning of programs with loads (SoundnessLoadA.v). *)
  Inductive sk :=
  | KCall (args : list expr)
  | KRef (exec : bool)
  | KApply (target : option nat)
  | KKeep (path : bytes) (pos : list expr) (kw : list (bytes * expr))
  | KLoad (path : bytes).

  Definition skel_step (cs : list (option fn)) (s : step) : sk :=
    match s with
    | SCall _ _ _ args => KCall args
    | SRef _ _ ex => KRef ex
    | SApply g => KApply (find_name (fn_name g) cs)
    | SKeep _ _ p _ pos kw => KKeep p (map fst pos) (map (fun nk => (fst nk, fst (snd nk))) kw)
    | SLoad p => KLoad p
    end.
  Fixpoint skel_lsteps (cs : list (option fn)) (l : list step) : list sk :=
    match l with [] => [] | s :: r => skel_step cs s :: skel_lsteps (cs ++ acallee s) r end.

  (* the executed body: the first one (for a class: the first method, as in DdsEval.exec_fn) *)
  Definition first_body (f : fn) : option body := match fn_bodies f with BCons b _ => Some b | BNil => None end.
  Definition body_steps (b : body) : list step := match b with Body _ _ sts => list_of_steps sts end.
  Definition body_vars (b : body) : list (bytes * pyval) := match b with Body vars _ _ => vars end.
  Definition first_steps (f : fn) : option (list step) := option_map body_steps (first_body f).

  (* the data_function decorator line is part of inspect.getsource(f): the text determines the decorator path too *)
  Definition skel (f : fn) :=
    (fn_tag f, fn_raises f, fn_params f, fn_is_class f, fn_annot f, option_map (skel_lsteps []) (first_steps f)).

  (* ---------------------------------------------------------------------------------------------------------------- *)
  (* 3. local well-formedness                                                                                         *)
  (* ---------------------------------------------------------------------------------------------------------------- *)
  (* dds.keep(p, g, e...): an argument that the analysis sees as a constant IS that constant *)
  Definition arg_ok (ea : expr * aarg) : Prop :=
    match snd ea with ALit v => fst ea = ELit v /\ lit_ok v | ARun => True end.

  (* g(e...): since fix F30 the analysis marks the parameters that a plain call binds explicitly as unknown (Sig.unbind):
     they are covered by the call-site context like the run-time arguments of a keep; nothing is asked of a plain call. *)
  Definition wf_step (cs : list (option fn)) (s : step) : Prop :=
    match s with
    | SCall _ _ _ _ | SRef _ _ _ => True
    | SApply g => exists j, find_name (fn_name g) cs = Some j /\ nth_error cs j = Some (Some g)
    | SKeep _ _ _ g pos kw => Forall arg_ok pos /\ Forall (fun nk => arg_ok (snd nk)) kw
    | SLoad _ => True
    end.
  Fixpoint wf_lsteps (cs : list (option fn)) (l : list step) : Prop :=
    match l with [] => True | s :: r => wf_step cs s /\ wf_lsteps (cs ++ acallee s) r end.

  Definition wf_body (b : body) : Prop :=
    Forall (fun nv => UVal (snd nv)) (body_vars b) /\ wf_lsteps [] (body_steps b).

  Definition wf_fn (f : fn) : Prop :=
    params_ok (fn_params f) /\
    (fn_is_class f = true -> fn_annot f = None) /\
    match first_body f with Some b => wf_body b | None => True end.

  (* direct callees of the executed body *)
  Definition step_callee (s : step) : list fn :=
    match s with
    | SCall _ _ g _ | SRef _ g _ | SApply g | SKeep _ _ _ g _ _ => [g]
    | SLoad _ => []
    end.
  Definition callees_l (l : list step) : list fn := flat_map step_callee l.
  Definition callees (f : fn) : list fn := match first_steps f with Some l => callees_l l | None => [] end.

  (* ---------------------------------------------------------------------------------------------------------------- *)
  (* 4. call sites                                                                                                    *)
  (* ---------------------------------------------------------------------------------------------------------------- *)
  Definition site_callee (s : step) : option fn :=
    match s with
    | SCall _ _ g _ | SRef _ g _ | SKeep _ _ _ g _ _ => Some g
    | SApply _ | SLoad _ => None
    end.
  (* how many source lines the call-site context covers *)
  Definition site_end (s : step) : option nat :=
    match s with
    | SCall line eline _ _ | SKeep line eline _ _ _ _ => Some (Nat.max (S line) eline)
    | SRef line _ _ => Some (Nat.max (S line) line)
    | SApply _ | SLoad _ => None
    end.
  Definition site_named (s : step) : actx_err + list (bytes * option bytes) :=
    match s with
    | SCall _ _ g args => scallee_ctx_plain hv g (List.length args)
    | SRef _ g _ => scallee_ctx_plain hv g 0
    | SKeep _ _ _ g pos kw => sarg_ctx_ast hv (fn_params g) 0 (map snd pos) (map (fun nk => (fst nk, snd (snd nk))) kw)
    | SApply _ | SLoad _ => inl AEMissing
    end.
  (* the parameter values the callee receives (for a by-name mention: when it is applied) *)
  Definition site_pv (s : step) (en : env) : option (list rv) :=
    match s with
    | SCall _ _ g args => bind_args (fn_params g) 0 (map (eval_expr en) args) []
    | SRef _ g _ => bind_args (fn_params g) 0 [] []
    | SKeep _ _ _ g pos kw =>
      bind_args (fn_params g) 0 (map (fun ea => eval_expr en (fst ea)) pos)
                (map (fun nk => (fst nk, eval_expr en (fst (snd nk)))) kw)
    | SApply _ | SLoad _ => None
    end.

  (* ---------------------------------------------------------------------------------------------------------------- *)
  (* 5. the universe and its hypotheses                                                                               *)
  (* ---------------------------------------------------------------------------------------------------------------- *)
  Variable U : fn -> Prop.                                                 (* all program versions, all their callees *)
  Variable RootOK : fn -> list (bytes * option bytes) -> list rv -> Prop.  (* top-level calls: named args, bound values *)

  Record univ_ok : Prop := {
    (* closed under the callees of executed bodies *)
    u_closed : forall f g, U f -> In g (callees f) -> U g;
    (* local well-formedness (section 3) *)
    u_wf : forall f, U f -> wf_fn f;
    (* the text of a function determines its skeleton *)
    u_text : forall f f', U f -> U f' -> fn_lines f = fn_lines f' -> skel f = skel f';
    (* ... and the text up to the end of a call determines the skeleton up to that call (the call is identified by its
       rank among the analysed interactions: several calls can end on one line) *)
    u_prefix : forall f f' pre s post pre' s' post' k k',
        U f -> U f' ->
        first_steps f = Some (pre ++ s :: post) -> first_steps f' = Some (pre' ++ s' :: post') ->
        site_end s = Some k -> site_end s' = Some k' ->
        firstn k (fn_lines f) = firstn k' (fn_lines f') ->
        List.length (cs_of pre) = List.length (cs_of pre') ->
        fn_params f = fn_params f' /\ skel_lsteps [] (pre ++ [s]) = skel_lsteps [] (pre' ++ [s']);
    (* ideal hashing of source lines: injective on the prefixes of the texts of the universe *)
    u_hl_inj : forall f f' n n' h, U f -> U f' ->
        hl (firstn n (fn_lines f)) = HOk h -> hl (firstn n' (fn_lines f')) = HOk h ->
        firstn n (fn_lines f) = firstn n' (fn_lines f');
    (* ideal hashing of values: injective on UVal *)
    u_hv_inj : forall v w h, UVal v -> UVal w -> hv v = HOk h -> hv w = HOk h -> v = w;
    (* top-level calls: of the universe, every argument known and readable *)
    u_root : forall f named pv, RootOK f named pv -> U f /\ kmatch named pv
  }.

  (* ---------------------------------------------------------------------------------------------------------------- *)
  (* 6. consistency of parameter values with an argument context                                                      *)
  (* ---------------------------------------------------------------------------------------------------------------- *)
  (* [Cons g A pv]: A = (named argument hashes, content of the call site) is an argument context under which g is
     analysed, and pv are the parameter values g receives there:
     - a top-level call of the universe;
     - a call site of the executed body of a caller f, itself consistent: the analysis of f reaches the site with the
       interactions [ch] and loads [loads] so far, the plain execution of f reaches the site with environment [en],
       A is what the analysis hands to g, pv what the execution binds. *)
  Inductive Cons : fn -> cargctx -> list rv -> Prop :=
  | CRoot : forall f named pv, RootOK f named pv -> Cons f (named, None) pv
  | CSite : forall f Af pvf vars exts sts af vs Rf pre s post ch loads R1 en g k ph named pv,
      Cons f Af pvf ->
      first_body f = Some (Body vars exts sts) ->
      list_of_steps sts = pre ++ s :: post ->
      cargs Af = inr af ->
      cvars hv vars = inr vs ->
      cana_steps hv hl (steps_of pre) (fn_lines f) af exts vs ([], [], Rf) = inr (ch, loads, R1) ->
      pv_steps (steps_of pre) (Env pvf (map snd vars) []) = inr en ->
      site_callee s = Some g -> site_end s = Some k ->
      clines hl (firstn k (fn_lines f)) = inr ph ->
      site_named s = inr named ->
      site_pv s en = Some pv ->
      Cons g (named, Some (Content ph af loads ch exts vs)) pv.
End Vocabulary.

Lemma list_of_steps_of : forall l, list_of_steps (steps_of l) = l.
Proof. induction l as [|s r IH]; [reflexivity|]. cbn [steps_of list_of_steps]. rewrite IH. reflexivity. Qed.

Lemma steps_of_list : forall s, steps_of (list_of_steps s) = s.
Proof. induction s as [|x r IH]; [reflexivity|]. cbn [steps_of list_of_steps]. rewrite IH. reflexivity. Qed.

Lemma cs_of_app : forall a b, cs_of (a ++ b) = cs_of a ++ cs_of b.
Proof. intros a b. unfold cs_of. apply flat_map_app. Qed.

Lemma cs_of_snoc : forall l s, cs_of (l ++ [s]) = cs_of l ++ acallee s.
Proof. intros l s. rewrite cs_of_app. unfold cs_of at 2. cbn [flat_map]. rewrite app_nil_r. reflexivity. Qed.

Lemma callees_l_app : forall a b, callees_l (a ++ b) = callees_l a ++ callees_l b.
Proof. intros a b. unfold callees_l. apply flat_map_app. Qed.

Lemma skel_lsteps_app : forall l1 l2 cs,
  skel_lsteps cs (l1 ++ l2) = skel_lsteps cs l1 ++ skel_lsteps (cs ++ cs_of l1) l2.
Proof.
  induction l1 as [|s r IH]; intros l2 cs.
  - cbn [app skel_lsteps cs_of flat_map]. rewrite app_nil_r. reflexivity.
  - cbn [app skel_lsteps]. rewrite IH. unfold cs_of. cbn [flat_map]. rewrite app_assoc. reflexivity.
Qed.

Lemma skel_lsteps_length : forall l cs, List.length (skel_lsteps cs l) = List.length l.
Proof. induction l as [|s r IH]; intros cs; [reflexivity|]. cbn [skel_lsteps List.length]. rewrite IH. reflexivity. Qed.

Lemma wf_lsteps_app : forall UVal l1 l2 cs,
  wf_lsteps UVal cs (l1 ++ l2) <-> wf_lsteps UVal cs l1 /\ wf_lsteps UVal (cs ++ cs_of l1) l2.
Proof.
  intros UVal. induction l1 as [|s r IH]; intros l2 cs.
  - cbn [app wf_lsteps cs_of flat_map]. rewrite app_nil_r. tauto.
  - cbn [app wf_lsteps]. rewrite IH. unfold cs_of. cbn [flat_map]. rewrite app_assoc. tauto.
Qed.

Lemma callees_first : forall f b, first_body f = Some b -> callees f = callees_l (body_steps b).
Proof. intros f b H. unfold callees, first_steps. rewrite H. reflexivity. Qed.
