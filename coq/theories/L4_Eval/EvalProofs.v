(* Proofs about the evaluation state machine of DdsEval.v (C01, C03, C04, C10, C11, C15), over the vocabulary of
   EvalSpec.v.
   What an execution does to the state (paths untouched, blobs persist, log grows) holds in every mode, for every
   program, loads included, without hypothesis: instances of exec_inv.  The outcome theorems (C01) are about programs
   without loads: plain execution is the pure semantics pv_fn, and so is memoised execution under sound_fn /
   root_sound, "key denotes v IFF the plain value is v".  The one-directional notion (wsound_fn, wroot_sound) is too
   weak: dds_exec_correct_false, dds_call_correct_false.  No theorem needs Den to be functional: the iff gives
   uniqueness at every key that is written.  What a call commits, and that a rejected or restricted call is pure,
   needs no hypothesis on program, store or signatures; StoreOK holds along every history of calls satisfying
   call_hyp.
   Route.  A step is executed through its [view] ([step_view]: skip, call of g on bound arguments, keep of g at a path,
   load; [exec_step_view]: exec_step is [exec_view] of the view), and [prog_ind_view] is the induction over programs in
   these terms: a function is the steps of its first body, and the case of a step assumes P of the callee in its view
   ([view_ok]).  Each result about execution comes in three layers: a lemma about [kept_call], a lemma about
   [exec_view] by cases on the view ([inv_view], [plain_view], [dds_view]), and [prog_ind_view] over them ([exec_inv],
   [exec_plain], [exec_dds]).  L3_Sig/SigProofs.v uses the same definitions and induction for re-evaluation. *)
From Coq Require Import List Ascii String ZArith NArith Bool.
From DDS Require Import Base.Bytes Base.BytesFacts L0_Hash.PyVal L1_Args.ArgCtx L3_Sig.Program L3_Sig.Sig
     L4_Eval.Stages L4_Eval.DdsEval L4_Eval.EvalSpec.
Import ListNotations.

Lemma blookup_bupdate_same : forall (A : Type) k (v : A) l, blookup k (bupdate k v l) = Some v.
Proof.
  intros A k v l. induction l as [|[k' v'] r IH]; simpl.
  - rewrite bytes_eqb_refl. reflexivity.
  - destruct (bytes_eqb k k') eqn:E; simpl; [rewrite bytes_eqb_refl | rewrite E]; auto.
Qed.

Lemma blookup_bupdate_other : forall (A : Type) k k' (v : A) l, k <> k' -> blookup k (bupdate k' v l) = blookup k l.
Proof.
  intros A k k' v l Hne.
  assert (E : bytes_eqb k k' = false) by (apply bytes_eqb_neq; exact Hne).
  induction l as [|[k2 v2] r IH]; simpl; [rewrite E; reflexivity|].
  destruct (bytes_eqb k' k2) eqn:E2; simpl; [|rewrite IH; reflexivity].
  apply bytes_eqb_eq in E2. subst k2. rewrite E. reflexivity.
Qed.

Definition fn_result (tag : bytes) (raises : option bytes) (en : env) : outcome :=
  match raises with
  | Some kind => Raise tag kind
  | None => Ret (RTup (RVal (VStr tag) :: e_params en ++ map RVal (e_vars en) ++ e_locals en))
  end.

Lemma exec_fn_eq : forall m n tag raises l p a c bds pvals s,
  exec_fn m (Fn n tag raises l p a c bds) pvals s =
  match bds with
  | BCons b _ =>
    match exec_body m b (Env pvals [] []) s with
    | (inl o, s') => (o, s')
    | (inr en, s') => (fn_result tag raises en, st_log tag s')
    end
  | BNil => (LowErr "no-body", s)
  end.
Proof. intros m n tag raises l p a c bds pvals s. destruct raises; reflexivity. Qed.

Lemma exec_body_eq : forall m vars exts sts en s,
  exec_body m (Body vars exts sts) en s = exec_steps m sts (Env (e_params en) (map snd vars) []) s.
Proof. reflexivity. Qed.

Lemma exec_steps_cons : forall m st r en s,
  exec_steps m (SCons st r) en s =
  match exec_step m st en s with
  | (inl o, s') => (inl o, s')
  | (inr en', s') => exec_steps m r en' s'
  end.
Proof. reflexivity. Qed.

Lemma pv_fn_eq : forall n tag raises l p a c bds pvals,
  pv_fn (Fn n tag raises l p a c bds) pvals =
  match bds with
  | BCons b _ => match pv_body b (Env pvals [] []) with inl o => o | inr en => fn_result tag raises en end
  | BNil => LowErr "no-body"
  end.
Proof. reflexivity. Qed.

Lemma pv_body_eq : forall vars exts sts en,
  pv_body (Body vars exts sts) en = pv_steps sts (Env (e_params en) (map snd vars) []).
Proof. reflexivity. Qed.

Lemma pv_steps_cons : forall st r en,
  pv_steps (SCons st r) en = match pv_step st en with inl o => inl o | inr en' => pv_steps r en' end.
Proof. reflexivity. Qed.

(* what a step does, independently of its syntactic form *)
Inductive view :=
| VSkip
| VCall (g : fn) (pv : option (list rv))
| VKeep (p : bytes) (g : fn) (pv : option (list rv))
| VLoad (p : bytes).

Definition step_view (st : step) (en : env) : view :=
  match st with
  | SCall _ _ g args => VCall g (bind_args (fn_params g) 0 (map (eval_expr en) args) [])
  | SRef _ g true | SApply g => VCall g (bind_args (fn_params g) 0 [] [])
  | SRef _ _ false => VSkip
  | SKeep _ _ p g pos kw =>
    VKeep p g (bind_args (fn_params g) 0 (map (fun ea => eval_expr en (fst ea)) pos)
                         (map (fun nk => (fst nk, eval_expr en (fst (snd nk)))) kw))
  | SLoad p => VLoad p
  end.

Definition view_ok (P : fn -> Prop) (v : view) : Prop :=
  match v with VCall g _ | VKeep _ g _ => P g | VSkip | VLoad _ => True end.

Definition kept_call (m : mode) (en : env) (s : state) (g : fn) (path : bytes) (pvals : list rv)
  : (outcome + env) * state :=
  match m with
  | Plain =>
    match exec_fn m g pvals s with
    | (Ret v, s') => (inr (add_local en v), st_keep path v s')
    | (o, s') => (inl o, s')
    end
  | Dds requested =>
    match blookup path requested with
    | None => (inl (LowErr "KeyError"), s)
    | Some key =>
      match blookup key (s_blobs s) with
      | Some v => (inr (add_local en v), s)
      | None =>
        match exec_fn m g pvals s with
        | (Ret v, s') => (inr (add_local en v), st_put key v s')
        | (o, s') => (inl o, s')
        end
      end
    end
  end.

Definition user_call (m : mode) (en : env) (s : state) (g : fn) (pvals : list rv) : (outcome + env) * state :=
  match fn_annot g with
  | Some p => kept_call m en s g p pvals
  | None =>
    match exec_fn m g pvals s with
    | (Ret v, s') => (inr (add_local en v), s')
    | (o, s') => (inl o, s')
    end
  end.

Definition call_opt (m : mode) (en : env) (s : state) (g : fn) (pv : option (list rv)) : (outcome + env) * state :=
  match pv with Some pv => user_call m en s g pv | None => (inl (LowErr "TypeError"), s) end.

Definition keep_opt (m : mode) (en : env) (s : state) (g : fn) (p : bytes) (pv : option (list rv))
  : (outcome + env) * state :=
  match pv with Some pv => kept_call m en s g p pv | None => (inl (LowErr "TypeError"), s) end.

Definition load_step (m : mode) (en : env) (s : state) (p : bytes) : (outcome + env) * state :=
  match m with
  | Plain =>
    match blookup p (s_kept s) with
    | Some v => (inr (add_local en v), s)
    | None => (inl (DdsErr "NONE"), s)
    end
  | Dds requested =>
    match blookup p requested with
    | Some key =>
      match blookup key (s_blobs s) with
      | Some v => (inr (add_local en v), s)
      | None => (inl (DdsErr "LOAD_BEFORE_STORE"), s)
      end
    | None =>
      match blookup p (s_paths s) with
      | None => (inl (DdsErr "NONE"), s)
      | Some key =>
        match blookup key (s_blobs s) with
        | Some v => (inr (add_local en v), s)
        | None => (inl (DdsErr "NONE"), s)
        end
      end
    end
  end.

Lemma load_step_state : forall m en s p, snd (load_step m en s p) = s.
Proof. intros [|req] en s p; unfold load_step; repeat destruct (blookup _ _); reflexivity. Qed.

Definition exec_view (m : mode) (en : env) (s : state) (v : view) : (outcome + env) * state :=
  match v with
  | VSkip => (inr en, s)
  | VCall g pv => call_opt m en s g pv
  | VKeep p g pv => keep_opt m en s g p pv
  | VLoad p => load_step m en s p
  end.

Lemma exec_step_view : forall m st en s, exec_step m st en s = exec_view m en s (step_view st en).
Proof.
  intros m [| ? ? []| | |] en s; reflexivity.
Qed.

Definition pv_call (en : env) (g : fn) (pv : option (list rv)) : outcome + env :=
  match pv with
  | None => inl (LowErr "TypeError")
  | Some pv => match pv_fn g pv with Ret v => inr (add_local en v) | o => inl o end
  end.

Definition pv_view (en : env) (v : view) : outcome + env :=
  match v with
  | VSkip => inr en
  | VCall g pv | VKeep _ g pv => pv_call en g pv
  | VLoad _ => inl (DdsErr "NONE")
  end.

Lemma pv_step_view : forall st en, pv_step st en = pv_view en (step_view st en).
Proof.
  intros [| ? ? []| | |] en; reflexivity.
Qed.

Definition nl_view (v : view) : bool :=
  match v with VSkip => true | VCall g _ | VKeep _ g _ => no_loads_fn g | VLoad _ => false end.

Lemma nl_step_view : forall st en, no_loads_step st = true -> nl_view (step_view st en) = true.
Proof.
  intros [| ? ? []| | |] en Hnl; try exact Hnl; reflexivity.
Qed.

(* induction over programs as execution sees them: a function is the steps of its first body, a step is its view *)
Lemma prog_ind_view : forall (P : fn -> Prop) (Q : steps -> Prop),
  (forall n tag raises l p a c bds,
      match bds with BNil => True | BCons (Body _ _ sts) _ => Q sts end -> P (Fn n tag raises l p a c bds)) ->
  Q SNil ->
  (forall st r, (forall en, view_ok P (step_view st en)) -> Q r -> Q (SCons st r)) ->
  forall f, P f.
Proof.
  intros P Q Hfn Hnil Hcons.
  (* the motives: for a list of bodies and for a body, Q of the steps of the (first) body; for a step, P of the callee
     in its view; the step cases hand on the hypothesis on the callee *)
  apply (fn_mind P (fun bds => match bds with BNil => True | BCons (Body _ _ sts) _ => Q sts end)
           (fun b => match b with Body _ _ sts => Q sts end) Q (fun st => forall en, view_ok P (step_view st en))).
  - (* Fn *) exact Hfn.
  - (* BNil *) exact I.
  - (* BCons *) intros b Hb r _. exact Hb.
  - (* Body *) intros vars exts sts Hs. exact Hs.
  - (* SNil *) exact Hnil.
  - (* SCons *) intros st Hst r Hr. exact (Hcons st r Hst Hr).
  - (* SCall *) intros l e g Hg args en. exact Hg.
  - (* SRef *) intros l g Hg [|] en; [exact Hg|exact I].
  - (* SApply *) intros g Hg en. exact Hg.
  - (* SKeep *) intros l e p g Hg pos kw en. exact Hg.
  - (* SLoad *) intros p en. exact I.
Qed.

(* What an execution in mode [m] does to the state, for every program (loads included): a relation that contains what
   the mode writes and is reflexive and transitive holds between the state before and the state after. *)
Section Inv.
  Variable m : mode.
  Variable R : state -> state -> Prop.
  Hypothesis R_refl : forall s, R s s.
  Hypothesis R_trans : forall a b c, R a b -> R b c -> R a c.
  Hypothesis R_log : forall t s, R s (st_log t s).
  Hypothesis R_keep : forall p v s, R s (st_keep p v s).
  (* a blob is written under a key only after that key was looked up and missed; the callee ran in between *)
  Hypothesis R_put : forall req, m = Dds req ->
    forall k v s s1, blookup k (s_blobs s) = None -> R s s1 -> R s (st_put k v s1).

  Definition inv_fn (f : fn) : Prop := forall pvals s, R s (snd (exec_fn m f pvals s)).

  Lemma inv_kept : forall en s g path pv, inv_fn g -> R s (snd (kept_call m en s g path pv)).
  Proof.
    intros en s g path pv IHg. specialize (IHg pv s). unfold kept_call. destruct m as [|req].
    - destruct (exec_fn Plain g pv s) as [[v| | |] s1]; try exact IHg.
      eapply R_trans; [exact IHg|apply R_keep].
    - destruct (blookup path req) as [key|]; [|apply R_refl].
      destruct (blookup key (s_blobs s)) eqn:Hb; [apply R_refl|].
      destruct (exec_fn (Dds req) g pv s) as [[v| | |] s1]; try exact IHg.
      exact (R_put req eq_refl key v s s1 Hb IHg).
  Qed.

  Lemma inv_view : forall en s v, view_ok inv_fn v -> R s (snd (exec_view m en s v)).
  Proof.
    intros en s [|g [pv|]|p g [pv|]|p] Hv; simpl; try apply R_refl.
    - unfold user_call. destruct (fn_annot g); [apply inv_kept; exact Hv|].
      specialize (Hv pv s). destruct (exec_fn m g pv s) as [[] s1]; exact Hv.
    - apply inv_kept; exact Hv.
    - rewrite load_step_state. apply R_refl.
  Qed.

  Lemma exec_inv : forall f pvals s, R s (snd (exec_fn m f pvals s)).
  Proof.
    apply (prog_ind_view inv_fn (fun sts => forall en s, R s (snd (exec_steps m sts en s)))).
    - intros n tag raises l p a c bds IH pvals s. rewrite exec_fn_eq.
      destruct bds as [|[vars exts sts] r]; [apply R_refl|]. rewrite exec_body_eq.
      specialize (IH (Env pvals (map snd vars) []) s).
      destruct (exec_steps m sts _ s) as [[o|en] s1]; [exact IH|].
      eapply R_trans; [exact IH|apply R_log].
    - intros en s. apply R_refl.
    - intros st r Hv IHr en s. rewrite exec_steps_cons, exec_step_view. pose proof (inv_view en s _ (Hv en)) as Hst.
      destruct (exec_view m en s (step_view st en)) as [[o|en1] s1]; [exact Hst|].
      eapply R_trans; [exact Hst|apply IHr].
  Qed.
End Inv.

(* only st_sync writes the committed paths: execution never does *)
Lemma exec_paths_unchanged : forall m f pvals s, s_paths (snd (exec_fn m f pvals s)) = s_paths s.
Proof.
  intros m. apply (exec_inv m (fun a b => s_paths b = s_paths a)); try reflexivity.
  - intros a b c Hab Hbc. congruence.
  - intros req _ k v a b _ Hab. exact Hab.
Qed.

Definition ext (s s' : state) : Prop :=
  forall k v, blookup k (s_blobs s) = Some v -> blookup k (s_blobs s') = Some v.

Lemma exec_blobs_monotone : forall m f pvals s, ext s (snd (exec_fn m f pvals s)).
Proof.
  intros m. apply (exec_inv m ext); try (intros; intros ? ? Hk; exact Hk).
  - intros a b c Hab Hbc k v Hk. apply Hbc, Hab, Hk.
  - intros req _ k0 v0 a b Hnone Hab k v Hk.
    change (blookup k (bupdate k0 v0 (s_blobs b)) = Some v).
    rewrite blookup_bupdate_other; [apply Hab; exact Hk|congruence].
Qed.

Lemma exec_log_mono : forall m f pvals s, exists l, s_log (snd (exec_fn m f pvals s)) = s_log s ++ l.
Proof.
  intros m. apply (exec_inv m (fun a b => exists l, s_log b = s_log a ++ l)).
  - intros a. exists []. symmetry. apply app_nil_r.
  - intros a b c [l1 H1] [l2 H2]. exists (l1 ++ l2). rewrite H2, H1, app_assoc. reflexivity.
  - intros t a. exists [t]. reflexivity.
  - intros p v a. exists []. symmetry. apply app_nil_r.
  - intros req _ k v a b _ Hl. exact Hl.
Qed.

Lemma plain_blobs_unchanged : forall f pvals s, s_blobs (snd (exec_fn Plain f pvals s)) = s_blobs s.
Proof.
  apply (exec_inv Plain (fun a b => s_blobs b = s_blobs a)); try reflexivity.
  - intros a b c Hab Hbc. congruence.
  - intros req Hm. discriminate Hm.
Qed.

Definition plain_fn_ok (f : fn) : Prop := no_loads_fn f = true ->
  forall pvals s, fst (exec_fn Plain f pvals s) = pv_fn f pvals.

Lemma plain_kept : forall en s g path pv, plain_fn_ok g -> no_loads_fn g = true ->
  fst (kept_call Plain en s g path pv) = pv_call en g (Some pv).
Proof.
  intros en s g path pv IHg Hnl. unfold kept_call, pv_call. rewrite <- (IHg Hnl pv s).
  destruct (exec_fn Plain g pv s) as [[] s1]; reflexivity.
Qed.

Lemma plain_view : forall en s v, view_ok plain_fn_ok v -> nl_view v = true ->
  fst (exec_view Plain en s v) = pv_view en v.
Proof.
  intros en s [|g [pv|]|p g [pv|]|p] Hv Hnl; simpl in *.
  - (* VSkip *) reflexivity.
  - (* VCall, arguments bound: a kept call if g is annotated, else the hypothesis on g *)
    unfold user_call. destruct (fn_annot g); [apply plain_kept; assumption|].
    unfold pv_call. rewrite <- (Hv Hnl pv s). destruct (exec_fn Plain g pv s) as [[] s1]; reflexivity.
  - (* VCall, binding failed *) reflexivity.
  - (* VKeep, arguments bound *) apply plain_kept; assumption.
  - (* VKeep, binding failed *) reflexivity.
  - (* VLoad *) discriminate Hnl.
Qed.

Lemma exec_plain : forall f, plain_fn_ok f.
Proof.
  apply (prog_ind_view plain_fn_ok
           (fun sts => no_loads_steps sts = true -> forall en s, fst (exec_steps Plain sts en s) = pv_steps sts en)).
  - intros n tag raises l p a c bds IH Hnl pvals s. rewrite exec_fn_eq, pv_fn_eq.
    destruct bds as [|[vars exts sts] r]; [reflexivity|]. apply andb_true_iff in Hnl as [Hnl _].
    rewrite exec_body_eq, pv_body_eq, <- (IH Hnl _ s).
    destruct (exec_steps Plain sts _ s) as [[o|en] s1]; reflexivity.
  - reflexivity.
  - intros st r Hv IHr Hnl en s. apply andb_true_iff in Hnl as [Hn1 Hn2].
    rewrite exec_steps_cons, pv_steps_cons, exec_step_view, pv_step_view,
      <- (plain_view en s _ (Hv en) (nl_step_view st en Hn1)).
    destruct (exec_view Plain en s (step_view st en)) as [[o|en1] s1]; [reflexivity|apply IHr; exact Hn2].
Qed.

Lemma exec_plain_pv : forall f pvals s, no_loads_fn f = true ->
  fst (exec_fn Plain f pvals s) = pv_fn f pvals /\
  s_blobs (snd (exec_fn Plain f pvals s)) = s_blobs s /\
  s_paths (snd (exec_fn Plain f pvals s)) = s_paths s.
Proof.
  intros f pvals s Hnl.
  exact (conj (exec_plain f Hnl pvals s) (conj (plain_blobs_unchanged f pvals s) (exec_paths_unchanged Plain f pvals s))).
Qed.

Section WithDen.
  Variable Den : bytes -> rv -> Prop.

  Definition sound_kept (sp : list (bytes * bytes)) (g : fn) (path : bytes) (pv : option (list rv)) : Prop :=
    match pv with
    | None => True
    | Some pv =>
      exists key, blookup path sp = Some key /\
                  (forall v, Den key v <-> pv_fn g pv = Ret v) /\ sound_fn Den sp g pv
    end.
  Definition sound_plain (sp : list (bytes * bytes)) (g : fn) (pv : option (list rv)) : Prop :=
    match fn_annot g with
    | Some p => sound_kept sp g p pv
    | None => match pv with Some pv => sound_fn Den sp g pv | None => True end
    end.
  Definition sound_view (sp : list (bytes * bytes)) (v : view) : Prop :=
    match v with
    | VSkip | VLoad _ => True
    | VCall g pv => sound_plain sp g pv
    | VKeep p g pv => sound_kept sp g p pv
    end.

  Lemma sound_step_view : forall sp st en, sound_step Den sp st en = sound_view sp (step_view st en).
  Proof.
    intros sp [| ? ? []| | |] en; reflexivity.
  Qed.

  Lemma sound_steps_cons : forall sp st r en,
    sound_steps Den sp (SCons st r) en =
    (sound_step Den sp st en /\ match pv_step st en with inr en' => sound_steps Den sp r en' | inl _ => True end).
  Proof. reflexivity. Qed.

  Lemma sound_steps_reached : forall sp l en,
    (forall pre s post en', l = pre ++ s :: post -> pv_steps (steps_of pre) en = inr en' -> sound_step Den sp s en') ->
    sound_steps Den sp (steps_of l) en.
  Proof.
    induction l as [|s r IH]; intros en Hall; [exact I|]. cbn [steps_of]. rewrite sound_steps_cons.
    split; [exact (Hall [] s r en eq_refl eq_refl)|]. destruct (pv_step s en) as [o|en1] eqn:E; [exact I|].
    apply IH. intros pre s' post en' -> Hex. apply (Hall (s :: pre) s' post en' eq_refl).
    cbn [steps_of]. rewrite pv_steps_cons, E. exact Hex.
  Qed.

  Lemma StoreOK_put : forall s key v, StoreOK Den s -> Den key v -> StoreOK Den (st_put key v s).
  Proof.
    intros s key v Hok Hd k v0 Hk. change (blookup k (bupdate key v (s_blobs s)) = Some v0) in Hk.
    destruct (bytes_eqb_spec k key) as [->|Hne].
    - rewrite blookup_bupdate_same in Hk. injection Hk as <-. exact Hd.
    - rewrite blookup_bupdate_other in Hk by exact Hne. apply Hok; exact Hk.
  Qed.

  Definition dds_fn_ok (f : fn) : Prop := no_loads_fn f = true ->
    forall sp pvals s, StoreOK Den s -> sound_fn Den sp f pvals ->
      fst (exec_fn (Dds sp) f pvals s) = pv_fn f pvals /\ StoreOK Den (snd (exec_fn (Dds sp) f pvals s)).

  Lemma dds_kept : forall sp en s g path pv,
    dds_fn_ok g -> no_loads_fn g = true -> StoreOK Den s -> sound_kept sp g path (Some pv) ->
    fst (kept_call (Dds sp) en s g path pv) = pv_call en g (Some pv) /\
    StoreOK Den (snd (kept_call (Dds sp) en s g path pv)).
  Proof.
    intros sp en s g path pv IHg Hnl Hok [key [Hkey [Hden Hsg]]].
    unfold kept_call, pv_call. rewrite Hkey.
    destruct (blookup key (s_blobs s)) as [v|] eqn:Hb.
    - (* served from the store: the key denotes v, hence the plain value is v *)
      rewrite (proj1 (Hden v) (Hok key v Hb)). split; [reflexivity|exact Hok].
    - (* computed, then stored: the plain value is v, hence the key denotes v *)
      destruct (IHg Hnl sp pv s Hok Hsg) as [Ho Hok1]. rewrite <- Ho.
      destruct (exec_fn (Dds sp) g pv s) as [[v| | |] s1]; (split; [reflexivity|]); try exact Hok1.
      apply StoreOK_put; [exact Hok1|apply Hden; symmetry; exact Ho].
  Qed.

  Lemma dds_view : forall sp en s v,
    view_ok dds_fn_ok v -> nl_view v = true -> StoreOK Den s -> sound_view sp v ->
    fst (exec_view (Dds sp) en s v) = pv_view en v /\ StoreOK Den (snd (exec_view (Dds sp) en s v)).
  Proof.
    intros sp en s [|g [pv|]|p g [pv|]|p] Hv Hnl Hok Hs; simpl in *.
    - (* VSkip *) split; [reflexivity|exact Hok].
    - (* VCall, arguments bound: a kept call if g is annotated, else the hypothesis on g *)
      unfold user_call. unfold sound_plain in Hs. destruct (fn_annot g); [apply dds_kept; assumption|].
      destruct (Hv Hnl sp pv s Hok Hs) as [Ho Hok1]. unfold pv_call. rewrite <- Ho.
      destruct (exec_fn (Dds sp) g pv s) as [[] s1]; (split; [reflexivity|exact Hok1]).
    - (* VCall, binding failed *) split; [reflexivity|exact Hok].
    - (* VKeep, arguments bound *) apply dds_kept; assumption.
    - (* VKeep, binding failed *) split; [reflexivity|exact Hok].
    - (* VLoad *) discriminate Hnl.
  Qed.

  Lemma exec_dds : forall f, dds_fn_ok f.
  Proof.
    apply (prog_ind_view dds_fn_ok
      (fun sts => no_loads_steps sts = true -> forall sp en s, StoreOK Den s -> sound_steps Den sp sts en ->
         fst (exec_steps (Dds sp) sts en s) = pv_steps sts en /\ StoreOK Den (snd (exec_steps (Dds sp) sts en s)))).
    - intros n tag raises l p a c bds IH Hnl sp pvals s Hok Hs. rewrite exec_fn_eq, pv_fn_eq.
      destruct bds as [|[vars exts sts] r]; [split; [reflexivity|exact Hok]|]. apply andb_true_iff in Hnl as [Hnl _].
      destruct (IH Hnl sp _ s Hok Hs) as [Hx Hok1]. rewrite exec_body_eq, pv_body_eq, <- Hx.
      destruct (exec_steps (Dds sp) sts _ s) as [[o|en] s1]; (split; [reflexivity|exact Hok1]).
    - intros _ sp en s Hok _. split; [reflexivity|exact Hok].
    - intros st r Hv IHr Hnl sp en s Hok Hs. apply andb_true_iff in Hnl as [Hn1 Hn2].
      rewrite sound_steps_cons, sound_step_view in Hs. destruct Hs as [Hs1 Hs2].
      destruct (dds_view sp en s _ (Hv en) (nl_step_view st en Hn1) Hok Hs1) as [Hx Hok1].
      rewrite exec_steps_cons, pv_steps_cons, exec_step_view. rewrite pv_step_view, <- Hx in *.
      destruct (exec_view (Dds sp) en s (step_view st en)) as [[o|en1] s1]; [split; [reflexivity|exact Hok1]|].
      apply IHr; assumption.
  Qed.

  Theorem dds_exec_correct : forall f pvals s sp,
    no_loads_fn f = true -> StoreOK Den s -> sound_fn Den sp f pvals ->
    fst (exec_fn (Dds sp) f pvals s) = pv_fn f pvals /\
    StoreOK Den (snd (exec_fn (Dds sp) f pvals s)) /\
    s_paths (snd (exec_fn (Dds sp) f pvals s)) = s_paths s.
  Proof.
    intros f pvals s sp Hnl Hok Hs. destruct (exec_dds f Hnl sp pvals s Hok Hs) as [Ho Hok'].
    auto using exec_paths_unchanged.
  Qed.

  (* needs none of StoreOK / no_loads / sound_fn: see exec_blobs_monotone *)
  Lemma dds_exec_monotone : forall f pvals s sp k v,
    blookup k (s_blobs s) = Some v ->
    blookup k (s_blobs (snd (exec_fn (Dds sp) f pvals s))) = Some v.
  Proof. intros f pvals s sp k v Hk. apply exec_blobs_monotone; exact Hk. Qed.

  Definition post (s s' : state) : Prop := StoreOK Den s' /\ ext s s'.

  Lemma post_refl : forall s, StoreOK Den s -> post s s.
  Proof. intros s Hok. split; [exact Hok|intros k v Hk; exact Hk]. Qed.

  Lemma post_trans : forall a b c, post a b -> post b c -> post a c.
  Proof.
    intros a b c [_ Hab] [Hc Hbc]. split; [exact Hc|].
    intros k v Hk. apply Hbc. apply Hab. exact Hk.
  Qed.

  Lemma post_sync : forall s s1 sp, post s s1 -> post s (st_sync sp s1).
  Proof. intros s s1 sp Hp. exact Hp. Qed.

  (* st_put overwrites, but the key denotes exactly one value *)
  Lemma post_put : forall s s1 key v,
    post s s1 -> Den key v -> (forall v0, Den key v0 -> v0 = v) -> post s (st_put key v s1).
  Proof.
    intros s s1 key v [Hok Hext] Hd Huniq. split; [apply StoreOK_put; assumption|].
    intros k v0 Hk. apply Hext in Hk. change (blookup k (bupdate key v (s_blobs s1)) = Some v0).
    destruct (bytes_eqb_spec k key) as [->|Hne].
    - rewrite blookup_bupdate_same. f_equal. symmetry. apply Huniq, Hok, Hk.
    - rewrite blookup_bupdate_other by exact Hne. exact Hk.
  Qed.

  Variable H : bytes -> bytes.
  Variable mx : option N.

  Local Notation bind_top f pos kw :=
    (bind_args (fn_params f) 0 (map RVal pos) (map (fun nv => (fst nv, RVal (snd nv))) kw)).

  Definition root_sound (sp : list (bytes * bytes)) (x : fi) (f : fn) (sty : style) (pv : list rv) : Prop :=
    (forall v, Den (fi_sig x) v <-> pv_fn f pv = Ret v) /\
    (forall p key, root_path f sty = Some p -> blookup p sp = Some key ->
                   forall v, Den key v <-> pv_fn f pv = Ret v).

  Definition commit (c : config) (sp : list (bytes * bytes)) (s : state) : state :=
    if has_stage PathCommit (c_stages c) then st_sync sp s else s.

  Definition root_store (f : fn) (sty : style) (sp : list (bytes * bytes)) (v : rv) (s : state) : state :=
    match root_path f sty with
    | Some p => match blookup p sp with Some key => st_put key v s | None => s end
    | None => s
    end.

  Definition run_root (c : config) (f : fn) (sty : style) (sp : list (bytes * bytes)) (pv : list rv) (s : state)
    : outcome * state :=
    match exec_fn (Dds sp) f pv s with
    | (Ret v, s') => (Ret v, commit c sp (root_store f sty sp v s'))
    | r => r
    end.

  Lemma dds_call_eq : forall c f sty pos kw s,
    dds_call H mx c f sty pos kw s =
    match analysis H mx c f sty pos kw s with
    | inl o => (o, s)
    | inr (x, sp) =>
      if has_stage Eval (c_stages c) then
        match blookup (fi_sig x) (s_blobs s) with
        | Some v => (Ret v, commit c sp s)
        | None =>
          match bind_top f pos kw with
          | None => (LowErr "TypeError", s)
          | Some pv => run_root c f sty sp pv s
          end
        end
      else (Ret (RVal VNone), s)
    end.
  Proof.
    intros c f sty pos kw s. unfold dds_call, run_root, root_store, commit.
    destruct (analysis H mx c f sty pos kw s) as [o|[x sp]]; [reflexivity|].
    destruct (has_stage Eval (c_stages c)); [|reflexivity]. cbn [negb].
    destruct (blookup (fi_sig x) (s_blobs s)) as [v|];
      [destruct (has_stage PathCommit (c_stages c)); reflexivity|].
    destruct (bind_top f pos kw) as [pv|]; [|reflexivity].
    destruct (exec_fn (Dds sp) f pv s) as [[v| | |] s1]; try reflexivity.
    destruct (root_path f sty) as [p|]; [destruct (blookup p sp) as [key|]|];
      destruct (has_stage PathCommit (c_stages c)); reflexivity.
  Qed.

  Lemma commit_blobs : forall c sp s, s_blobs (commit c sp s) = s_blobs s.
  Proof. intros c sp s. unfold commit. destruct (has_stage PathCommit (c_stages c)); reflexivity. Qed.

  Lemma commit_paths : forall c sp s,
    s_paths (commit c sp s) =
    if has_stage PathCommit (c_stages c)
    then fold_left (fun acc pk => bupdate (fst pk) (snd pk) acc) sp (s_paths s) else s_paths s.
  Proof. intros c sp s. unfold commit. destruct (has_stage PathCommit (c_stages c)); reflexivity. Qed.

  Lemma dds_call_paths : forall c f sty pos kw s,
    s_paths (snd (dds_call H mx c f sty pos kw s)) =
    match analysis H mx c f sty pos kw s with
    | inl _ => s_paths s
    | inr (x, sp) =>
      if has_stage Eval (c_stages c) && is_ret (fst (dds_call H mx c f sty pos kw s))
           && has_stage PathCommit (c_stages c)
      then fold_left (fun acc pk => bupdate (fst pk) (snd pk) acc) sp (s_paths s) else s_paths s
    end.
  Proof.
    intros c f sty pos kw s. rewrite dds_call_eq.
    destruct (analysis H mx c f sty pos kw s) as [o|[x sp]]; [reflexivity|].
    destruct (has_stage Eval (c_stages c)); [|reflexivity]. cbn [andb].
    destruct (blookup (fi_sig x) (s_blobs s)) as [v|]; [apply commit_paths|].
    destruct (bind_top f pos kw) as [pv|]; [|reflexivity]. unfold run_root.
    pose proof (exec_paths_unchanged (Dds sp) f pv s) as Hp.
    destruct (exec_fn (Dds sp) f pv s) as [[v| | |] s1]; cbn [fst snd is_ret andb] in *; try exact Hp.
    rewrite commit_paths, <- Hp. unfold root_store.
    destruct (root_path f sty) as [p|]; [destruct (blookup p sp)|]; reflexivity.
  Qed.

  Lemma post_commit : forall c sp s s1, post s s1 -> post s (commit c sp s1).
  Proof. intros c sp s s1 Hp. unfold post, StoreOK, ext. rewrite commit_blobs. exact Hp. Qed.

  Lemma post_root_store : forall f sty sp x pv v s s1,
    root_sound sp x f sty pv -> pv_fn f pv = Ret v -> post s s1 -> post s (root_store f sty sp v s1).
  Proof.
    intros f sty sp x pv v s s1 [_ Hroot] Hpv Hp. unfold root_store.
    destruct (root_path f sty) as [p|] eqn:Hrp; [|exact Hp].
    destruct (blookup p sp) as [key|] eqn:Hk; [|exact Hp].
    pose proof (Hroot p key eq_refl Hk) as Hden.
    apply post_put; [exact Hp|apply Hden; exact Hpv|].
    intros v0 Hd. apply Hden in Hd. congruence.
  Qed.

  Lemma run_root_spec : forall c f sty sp x pv s,
    no_loads_fn f = true -> StoreOK Den s ->
    root_sound sp x f sty pv -> sound_fn Den sp f pv ->
    fst (run_root c f sty sp pv s) = pv_fn f pv /\ post s (snd (run_root c f sty sp pv s)).
  Proof.
    intros c f sty sp x pv s Hnl Hok Hroot Hs. unfold run_root.
    destruct (exec_dds f Hnl sp pv s Hok Hs) as [Ho Hok1].
    pose proof (conj Hok1 (exec_blobs_monotone (Dds sp) f pv s)) as Hp.
    destruct (exec_fn (Dds sp) f pv s) as [[v| | |] s1]; (split; [exact Ho|]); try exact Hp.
    apply post_commit. eapply post_root_store; [exact Hroot|symmetry; exact Ho|exact Hp].
  Qed.

  Definition call : Type := (config * fn * style * list pyval * list (bytes * pyval))%type.

  Definition do_call (cl : call) (s : state) : outcome * state :=
    match cl with (c, f, sty, pos, kw) => dds_call H mx c f sty pos kw s end.

  Fixpoint run_calls (l : list call) (s : state) : state :=
    match l with [] => s | cl :: r => run_calls r (snd (do_call cl s)) end.

  (* what is asked of a call at the state where it is issued.  Nothing is asked when the analysis rejects the call or
     when it is restricted before EVAL; [bind_args = None] (dds_call answers LowErr, state unchanged) needs nothing
     either. *)
  Definition call_hyp (s : state) (cl : call) : Prop :=
    match cl with
    | (c, f, sty, pos, kw) =>
      no_loads_fn f = true /\
      forall x sp pv,
        analysis H mx c f sty pos kw s = inr (x, sp) ->
        has_stage Eval (c_stages c) = true ->
        bind_top f pos kw = Some pv ->
        root_sound sp x f sty pv /\ sound_fn Den sp f pv
    end.

  Fixpoint calls_hyp (s : state) (l : list call) : Prop :=
    match l with
    | [] => True
    | cl :: r => call_hyp s cl /\ calls_hyp (snd (do_call cl s)) r
    end.

  Theorem dds_call_correct : forall c f sty pos kw s x sp pv,
    no_loads_fn f = true -> StoreOK Den s ->
    analysis H mx c f sty pos kw s = inr (x, sp) ->
    has_stage Eval (c_stages c) = true ->
    bind_args (fn_params f) 0 (map RVal pos) (map (fun nv => (fst nv, RVal (snd nv))) kw) = Some pv ->
    root_sound sp x f sty pv -> sound_fn Den sp f pv ->
    fst (dds_call H mx c f sty pos kw s) = pv_fn f pv /\ StoreOK Den (snd (dds_call H mx c f sty pos kw s)).
  Proof.
    intros c f sty pos kw s x sp pv Hnl Hok Ha Hev Hbind Hroot Hs. rewrite dds_call_eq, Ha, Hev.
    destruct (blookup (fi_sig x) (s_blobs s)) as [v|] eqn:Hb.
    - (* the root is served from the store *)
      split; [symmetry; apply (proj1 Hroot), Hok, Hb|apply (post_commit c sp s s), post_refl, Hok].
    - rewrite Hbind. destruct (run_root_spec c f sty sp x pv s Hnl Hok Hroot Hs) as [Ho [Hok' _]]. auto.
  Qed.

  Lemma dds_call_post : forall c f sty pos kw s, StoreOK Den s -> call_hyp s (c, f, sty, pos, kw) ->
    post s (snd (dds_call H mx c f sty pos kw s)).
  Proof.
    intros c f sty pos kw s Hok [Hnl Hh]. pose proof (post_refl s Hok) as Hs0. rewrite dds_call_eq.
    destruct (analysis H mx c f sty pos kw s) as [o|[x sp]]; [exact Hs0|].
    destruct (has_stage Eval (c_stages c)); [|exact Hs0]. specialize (Hh x sp).
    destruct (blookup (fi_sig x) (s_blobs s)); [apply post_commit, Hs0|].
    destruct (bind_top f pos kw) as [pv|]; [|exact Hs0].
    destruct (Hh pv eq_refl eq_refl eq_refl) as [Hroot Hs]. apply (run_root_spec c f sty sp x pv s Hnl Hok Hroot Hs).
  Qed.

  Theorem dds_call_store_ok : forall c f sty pos kw s,
    StoreOK Den s -> call_hyp s (c, f, sty, pos, kw) -> StoreOK Den (snd (dds_call H mx c f sty pos kw s)).
  Proof. intros c f sty pos kw s Hok Hh. exact (proj1 (dds_call_post c f sty pos kw s Hok Hh)). Qed.

  Theorem rejected_is_pure : forall c f sty pos kw s o,
    analysis H mx c f sty pos kw s = inl o -> dds_call H mx c f sty pos kw s = (o, s).
  Proof. intros c f sty pos kw s o Ha. unfold dds_call. rewrite Ha. reflexivity. Qed.

  Theorem analysis_only_pure : forall c f sty pos kw s,
    has_stage Eval (c_stages c) = false ->
    snd (dds_call H mx c f sty pos kw s) = s /\
    (forall x sp, analysis H mx c f sty pos kw s = inr (x, sp) ->
       fst (dds_call H mx c f sty pos kw s) = Ret (RVal VNone)).
  Proof.
    intros c f sty pos kw s Hev. rewrite dds_call_eq, Hev.
    destruct (analysis H mx c f sty pos kw s) as [o|[x sp]]; (split; [reflexivity|]).
    - intros x sp Hx. discriminate Hx.
    - reflexivity.
  Qed.

  Theorem fail_no_commit : forall c f sty pos kw s,
    is_ret (fst (dds_call H mx c f sty pos kw s)) = false ->
    s_paths (snd (dds_call H mx c f sty pos kw s)) = s_paths s.
  Proof.
    intros c f sty pos kw s Hr. rewrite dds_call_paths, Hr, andb_false_r.
    destruct (analysis H mx c f sty pos kw s) as [o|[x sp]]; reflexivity.
  Qed.

  Theorem no_commit_keeps_paths : forall c f sty pos kw s,
    has_stage PathCommit (c_stages c) = false ->
    s_paths (snd (dds_call H mx c f sty pos kw s)) = s_paths s.
  Proof.
    intros c f sty pos kw s Hpc. rewrite dds_call_paths, Hpc, andb_false_r.
    destruct (analysis H mx c f sty pos kw s) as [o|[x sp]]; reflexivity.
  Qed.

  Theorem analysis_paths_only : forall c f sty pos kw s1 s2,
    s_paths s1 = s_paths s2 -> analysis H mx c f sty pos kw s1 = analysis H mx c f sty pos kw s2.
  Proof. intros c f sty pos kw s1 s2 Heq. unfold analysis. rewrite Heq. reflexivity. Qed.

  Theorem commit_exact : forall c f sty pos kw s x sp v s',
    analysis H mx c f sty pos kw s = inr (x, sp) ->
    has_stage Eval (c_stages c) = true -> has_stage PathCommit (c_stages c) = true ->
    dds_call H mx c f sty pos kw s = (Ret v, s') ->
    s_paths s' = fold_left (fun acc pk => bupdate (fst pk) (snd pk) acc) sp (s_paths s).
  Proof.
    intros c f sty pos kw s x sp v s' Ha Hev Hpc Hcall.
    pose proof (dds_call_paths c f sty pos kw s) as Hp.
    rewrite Ha, Hev, Hpc, Hcall in Hp. exact Hp.
  Qed.

  (* a completed evaluation restricted before PATH_COMMIT, or any failed one, commits nothing: together with
     [commit_exact] this is "exactly its store paths" *)
  Theorem commit_only_when_complete : forall c f sty pos kw s,
    s_paths (snd (dds_call H mx c f sty pos kw s)) <> s_paths s ->
    exists x sp v, analysis H mx c f sty pos kw s = inr (x, sp) /\
                   has_stage Eval (c_stages c) = true /\ has_stage PathCommit (c_stages c) = true /\
                   fst (dds_call H mx c f sty pos kw s) = Ret v.
  Proof.
    intros c f sty pos kw s Hne. rewrite dds_call_paths in Hne.
    destruct (analysis H mx c f sty pos kw s) as [o|[x sp]]; [congruence|].
    destruct (_ && _ && _) eqn:E in Hne; [|congruence].
    apply andb_true_iff in E as [E Hpc]. apply andb_true_iff in E as [Hev Hr].
    destruct (fst (dds_call H mx c f sty pos kw s)) as [v| | |]; try discriminate Hr.
    exists x, sp, v. auto.
  Qed.

  Lemma history_post : forall l s, StoreOK Den s -> calls_hyp s l -> post s (run_calls l s).
  Proof.
    induction l as [|[[[[c f] sty] pos] kw] r IH]; simpl; intros s Hok Hl; [apply post_refl; exact Hok|].
    destruct Hl as [Hc Hr]. pose proof (dds_call_post c f sty pos kw s Hok Hc) as Hp.
    eapply post_trans; [exact Hp|apply IH; [exact (proj1 Hp)|exact Hr]].
  Qed.

  Theorem history_sound : forall l s, StoreOK Den s -> calls_hyp s l -> StoreOK Den (run_calls l s).
  Proof. intros l s Hok Hl. exact (proj1 (history_post l s Hok Hl)). Qed.

  Theorem history_monotone : forall l s k v, StoreOK Den s -> calls_hyp s l ->
    blookup k (s_blobs s) = Some v -> blookup k (s_blobs (run_calls l s)) = Some v.
  Proof. intros l s k v Hok Hl. exact (proj2 (history_post l s Hok Hl) k v). Qed.

  Lemma StoreOK_empty : StoreOK Den st_empty.
  Proof. intros k v Hk. discriminate Hk. Qed.

  Corollary history_sound_from_empty : forall l, calls_hyp st_empty l -> StoreOK Den (run_calls l st_empty).
  Proof. intros l Hl. apply history_sound; [apply StoreOK_empty|exact Hl]. Qed.

End WithDen.

Lemma StoreOK_single : forall (Den : bytes -> rv -> Prop) k v ps lg kp,
  Den k v -> StoreOK Den (State [(k, v)] ps lg kp).
Proof.
  intros Den k v ps lg kp Hd. apply (StoreOK_put Den (State [] ps lg kp)); [|exact Hd].
  intros k' v' Hk. discriminate Hk.
Qed.

(* def g(x): return ("g", x)          def f(a): return ("f", a, dds.keep("/p", g, a)) *)
Definition ex_g : fn :=
  Fn (bs "m/g") (bs "g") None [] [Param (bs "x") POK None] None false (bodies_of [Body [] [] (steps_of [])]).
Definition ex_f : fn :=
  Fn (bs "m/f") (bs "f") None [] [Param (bs "a") POK None] None false
     (bodies_of [Body [] [] (steps_of [SKeep 1 1 (bs "/p") ex_g [(EParam 0, ARun)] []])]).
Definition ex_pv : list rv := [RVal (VInt 7)].
Definition ex_gv : rv := RTup [RVal (VStr (bs "g")); RVal (VInt 7)].
Definition ex_fv : rv := RTup [RVal (VStr (bs "f")); RVal (VInt 7); ex_gv].
Definition ex_key : bytes := bs "K".
Definition ex_sp : list (bytes * bytes) := [(bs "/p", ex_key)].
Definition ex_Den (k : bytes) (v : rv) : Prop := k = ex_key /\ v = ex_gv.

Example ex_nonvacuous :
  StoreOK ex_Den st_empty /\ no_loads_fn ex_f = true /\
  sound_fn ex_Den ex_sp ex_f ex_pv /\ pv_fn ex_f ex_pv = Ret ex_fv.
Proof.
  split; [apply StoreOK_empty|]. split; [reflexivity|].
  split; [|vm_compute; reflexivity].
  vm_compute. split; [|exact I]. eexists. split; [reflexivity|]. split; [|exact I].
  intros v. split.
  - intros [_ Hv]. subst v. reflexivity.
  - intros Hv. inversion Hv; subst. split; reflexivity.
Qed.

(* the theorem applied: first evaluation computes and stores, the second is served from the store *)
Example ex_first_run :
  exec_fn (Dds ex_sp) ex_f ex_pv st_empty = (Ret ex_fv, State [(ex_key, ex_gv)] [] [bs "g"; bs "f"] []).
Proof. vm_compute. reflexivity. Qed.

Example ex_second_run :
  exec_fn (Dds ex_sp) ex_f ex_pv (State [(ex_key, ex_gv)] [] [] []) =
  (Ret ex_fv, State [(ex_key, ex_gv)] [] [bs "f"] []).
Proof. vm_compute. reflexivity. Qed.

Example ex_theorem_instance : forall s, StoreOK ex_Den s ->
  fst (exec_fn (Dds ex_sp) ex_f ex_pv s) = Ret ex_fv /\ StoreOK ex_Den (snd (exec_fn (Dds ex_sp) ex_f ex_pv s)).
Proof.
  intros s Hok. destruct ex_nonvacuous as [_ [Hnl [Hs Hpv]]].
  destruct (dds_exec_correct ex_Den ex_f ex_pv s ex_sp Hnl Hok Hs) as [Hf [Hok' _]].
  rewrite Hpv in Hf. split; assumption.
Qed.

Section Weak.
  Variable Den : bytes -> rv -> Prop.

  (* EvalSpec.sound_fn with "plain value => denoted" only *)
  Fixpoint wsound_fn (sp : list (bytes * bytes)) (f : fn) (pvals : list rv) {struct f} : Prop :=
    match f with
    | Fn _ _ _ _ _ _ _ bds =>
      match bds with BCons b _ => wsound_body sp b (Env pvals [] []) | BNil => True end
    end
  with wsound_body (sp : list (bytes * bytes)) (b : body) (en : env) {struct b} : Prop :=
    match b with Body vars _ sts => wsound_steps sp sts (Env (e_params en) (map snd vars) []) end
  with wsound_steps (sp : list (bytes * bytes)) (sts : steps) (en : env) {struct sts} : Prop :=
    match sts with
    | SNil => True
    | SCons st r =>
      wsound_step sp st en /\
      match pv_step st en with inr en' => wsound_steps sp r en' | inl _ => True end
    end
  with wsound_step (sp : list (bytes * bytes)) (st : step) (en : env) {struct st} : Prop :=
    let kept (g : fn) (path : bytes) (pv : option (list rv)) : Prop :=
      match pv with
      | None => True
      | Some pv =>
        exists key, blookup path sp = Some key /\
                    (forall v, pv_fn g pv = Ret v -> Den key v) /\ wsound_fn sp g pv
      end in
    let plain (g : fn) (pv : option (list rv)) : Prop :=
      match fn_annot g with
      | Some p => kept g p pv
      | None => match pv with Some pv => wsound_fn sp g pv | None => True end
      end in
    match st with
    | SCall _ _ g args => plain g (bind_args (fn_params g) 0 (map (eval_expr en) args) [])
    | SRef _ g true | SApply g => plain g (bind_args (fn_params g) 0 [] [])
    | SRef _ _ false => True
    | SKeep _ _ p g pos kw =>
      kept g p (bind_args (fn_params g) 0 (map (fun ea => eval_expr en (fst ea)) pos)
                          (map (fun nk => (fst nk, eval_expr en (fst (snd nk)))) kw))
    | SLoad _ => True
    end.

  Definition wroot_sound (sp : list (bytes * bytes)) (x : fi) (f : fn) (sty : style) (pv : list rv) : Prop :=
    (forall v, pv_fn f pv = Ret v -> Den (fi_sig x) v) /\
    (forall p key v, root_path f sty = Some p -> blookup p sp = Some key -> pv_fn f pv = Ret v -> Den key v).
End Weak.

(* def g(): raise ValueError          def f(): return ("f", dds.keep("/p", g)) *)
Definition cx_g : fn :=
  Fn (bs "m/g") (bs "g") (Some (bs "ValueError")) [] [] None false (bodies_of [Body [] [] SNil]).
Definition cx_f : fn :=
  Fn (bs "m/f") (bs "f") None [] [] None false
     (bodies_of [Body [] [] (steps_of [SKeep 1 1 (bs "/p") cx_g [] []])]).
Definition cx_sp : list (bytes * bytes) := [(bs "/p", bs "K")].
Definition cx_Den (k : bytes) (v : rv) : Prop := k = bs "K" /\ v = RVal VNone.
Definition cx_s : state := State [(bs "K", RVal VNone)] [] [] [].

(* the kept node raises, so the weak notion asks nothing of its key but to be requested *)
Lemma cx_wsound : forall Den sp key, blookup (bs "/p") sp = Some key -> wsound_fn Den sp cx_f [].
Proof.
  intros Den sp key Hk. simpl. split; [|exact I]. exists key. split; [exact Hk|]. split; [|exact I].
  intros v Hv. discriminate Hv.
Qed.

(* with the weak notion all the hypotheses of [dds_exec_correct] hold (Den is even functional), its conclusion does
   not: the key of a kept node that raises denotes a value, the store holds it, the memoised execution returns where
   plain execution raises *)
Example dds_exec_correct_false :
  (forall k v v', cx_Den k v -> cx_Den k v' -> v = v') /\
  no_loads_fn cx_f = true /\ StoreOK cx_Den cx_s /\ wsound_fn cx_Den cx_sp cx_f [] /\
  fst (exec_fn (Dds cx_sp) cx_f [] cx_s) <> pv_fn cx_f [].
Proof.
  split; [intros k v v' [_ Hv] [_ Hv']; congruence|]. split; [reflexivity|].
  split; [apply StoreOK_single; split; reflexivity|].
  split; [apply (cx_wsound _ _ (bs "K")); reflexivity|].
  intro Hc. vm_compute in Hc. discriminate Hc.
Qed.

(* the same at top level, through the real analysis (identity "hash", all stages, pinned pre-pass) *)
Definition cx_H (b : bytes) : bytes := b.
Definition cx_cfg : config := Config [Analysis; StoreInspect; Eval; StoreCommit; PathCommit] false.
Definition cx_res : outcome + (fi * list (bytes * bytes)) := analysis cx_H None cx_cfg cx_f StEval [] [] st_empty.
Definition cx_x : fi := match cx_res with inr (x, _) => x | inl _ => FI [] None [] 0 [] [] end.
Definition cx_sp2 : list (bytes * bytes) := match cx_res with inr (_, sp) => sp | inl _ => [] end.
Definition cx_K2 : bytes := match blookup (bs "/p") cx_sp2 with Some k => k | None => [] end.
Definition cx_Den2 (k : bytes) (v : rv) : Prop := k = cx_K2 /\ v = RVal VNone.
Definition cx_s2 : state := State [(cx_K2, RVal VNone)] [] [] [].

Example dds_call_correct_false :
  (forall k v v', cx_Den2 k v -> cx_Den2 k v' -> v = v') /\
  no_loads_fn cx_f = true /\ StoreOK cx_Den2 cx_s2 /\
  analysis cx_H None cx_cfg cx_f StEval [] [] cx_s2 = inr (cx_x, cx_sp2) /\
  has_stage Eval (c_stages cx_cfg) = true /\
  bind_args (fn_params cx_f) 0 (map RVal []) (map (fun nv : bytes * pyval => (fst nv, RVal (snd nv))) []) = Some [] /\
  wroot_sound cx_Den2 cx_sp2 cx_x cx_f StEval [] /\ wsound_fn cx_Den2 cx_sp2 cx_f [] /\
  fst (dds_call cx_H None cx_cfg cx_f StEval [] [] cx_s2) <> pv_fn cx_f [].
Proof.
  split; [intros k v v' [_ Hv] [_ Hv']; congruence|]. split; [reflexivity|].
  split; [apply StoreOK_single; split; reflexivity|].
  split; [vm_compute; reflexivity|]. split; [reflexivity|]. split; [reflexivity|].
  split; [|split].
  - split.
    + intros v Hv. vm_compute in Hv. discriminate Hv.
    + intros p key v _ _ Hv. vm_compute in Hv. discriminate Hv.
  - apply (cx_wsound _ _ cx_K2). vm_compute. reflexivity.
  - intro Hc. vm_compute in Hc. discriminate Hc.
Qed.

Print Assumptions dds_exec_correct.
Print Assumptions dds_call_correct.
Print Assumptions commit_exact.
Print Assumptions history_sound.
Print Assumptions exec_paths_unchanged.
Print Assumptions dds_exec_monotone.
Print Assumptions dds_call_correct_false.
