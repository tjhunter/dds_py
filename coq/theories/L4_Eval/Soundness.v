(* Soundness of signatures: the hypotheses [sound_fn] / [root_sound] of EvalProofs.v are THEOREMS over a
   universe satisfying [univ_ok] (SoundnessDefs.v), once rendering is injective on the signature terms of the universe
   ([render_inj_on]: the cryptographic idealisation).
   - [Den_U]: "k is the rendered signature of a consistent node of the universe whose plain value is Ret v";
   - Theorem B: [ideal_sound_fn], [ideal_root_sound];
   - Corollary C: [C01_end_to_end_lemma] - every history of top-level calls of the universe from the empty store;
   - the regression theorem of finding F30 ([plain_call_explicit_argument_tracked]) and the refutations found on the way
     ([marker_literal_refuted], [hv_collision_refuted], ...);
   - non-vacuity: a concrete universe, which closes the file.
   Builds on SoundnessA.v (Theorem A) and SoundnessSite.v; the closing example instantiates the hypotheses with the checks of
   ClosedUniverse.v.  Used by Properties/C01c.v and by SoundnessLoad.v, which takes from here, among others, [resolves] and
   [coherent] with their lemmas, [styled], [lift0], [analysis_invL], [sana_path_wf], [in_universe] and the digest function
   [sx_H] of the example. *)
From Coq Require Import List Ascii String ZArith NArith Bool Lia.
From DDS Require Import Base.Bytes Base.BytesFacts Extracted.ConstHash L0_Hash.PyVal L0_Hash.DdsHash L1_Args.ArgCtx
     L3_Sig.Program L3_Sig.Sig L3_Sig.SigProofs L3_Sig.SigTree L3_Sig.SigTreeProofs
     L4_Eval.Stages L4_Eval.Overlap L4_Eval.DdsEval L4_Eval.EvalSpec L4_Eval.EvalProofs
     L4_Eval.SoundnessDefs L4_Eval.SoundnessSite L4_Eval.SoundnessA L4_Eval.ClosedUniverse.
Import ListNotations.


(* every (path, signature) of the tree is what the requested-paths map [sp] answers for that path *)
Definition resolves (sp : list (bytes * bytes)) (x : fi) : Prop :=
  forall q s, In (q, s) (store_paths_list x) -> blookup q sp = Some s.

Lemma resolves_kid : forall sp x y, resolves sp x -> In y (fi_children x) -> resolves sp y.
Proof.
  intros sp [s p n a l ch] y Hx Hy q s0 Hin. apply Hx. rewrite store_paths_list_eq. apply in_or_app. right.
  apply in_flat_map. exists y. split; [exact Hy|exact Hin].
Qed.

Lemma resolves_head : forall sp x q, resolves sp x -> fi_path x = Some q -> blookup q sp = Some (fi_sig x).
Proof.
  intros sp [s p n a l ch] q Hx Hq. cbn in Hq. subst p. apply Hx. rewrite store_paths_list_eq. left. reflexivity.
Qed.

(* the decidable form used as a hypothesis on top-level calls.  It fails exactly when one path is kept with two
   different signatures in one evaluation (findings F12 / F26: the first occurrence decides for both). *)
Definition coherent (x : fi) : bool :=
  forallb (fun qs => match blookup (fst qs) (all_store_paths x) with
                     | Some k => bytes_eqb k (snd qs)
                     | None => false
                     end) (store_paths_list x).

Lemma coherent_resolves : forall x, coherent x = true -> resolves (all_store_paths x) x.
Proof.
  intros x Hc q s Hin. unfold coherent in Hc. rewrite forallb_forall in Hc. specialize (Hc (q, s) Hin).
  cbn [fst snd] in Hc. destruct (blookup q (all_store_paths x)) as [k|]; [|discriminate Hc].
  apply bytes_eqb_eq in Hc. subst. reflexivity.
Qed.

Lemma fi_path_render : forall H x, fi_path (render_sfi H x) = sfi_path x.
Proof. intros H [s p n a l ch]. reflexivity. Qed.
Lemma fi_children_render : forall H x, fi_children (render_sfi H x) = map (render_sfi H) (sfi_children x).
Proof. intros H [s p n a l ch]. reflexivity. Qed.

Lemma resolves_kids : forall H sp x y, resolves sp (render_sfi H x) -> In y (sfi_children x) -> resolves sp (render_sfi H y).
Proof. intros H sp x y Hx Hy. apply (resolves_kid sp _ _ Hx). rewrite fi_children_render. exact (in_map _ _ _ Hy). Qed.

(* the tree t of the callee of a call site, in an evaluation whose requested paths resolve the tree of the site: the
   children of t resolve, and the path under which the callee is kept answers the signature of t *)
Lemma site_resolves : forall H sp s t, resolves sp (render_sfi H (set_path_opt (site_path s) t)) ->
  (forall y, In y (sfi_children t) -> resolves sp (render_sfi H y)) /\
  forall g q, sfi_path t = fn_annot g -> site_kpath s g = Some q -> blookup q sp = Some (render H (sfi_sig t)).
Proof.
  intros H sp s t Hrt. destruct (set_path_opt_spec (site_path s) t) as (Esig & Ekids & Epath). split.
  - intros y Hy. apply (resolves_kids H sp _ y Hrt). rewrite Ekids. exact Hy.
  - intros g q Ht Hq. rewrite <- Esig, <- fi_sig_render. apply (resolves_head _ _ _ Hrt).
    rewrite fi_path_render, Epath, Ht. exact Hq.
Qed.

(* the trees of the steps of the executed body ([sana_fn_steps]) resolve when the children of the node do *)
Lemma body_resolves : forall H sp t inters, (forall y, In y (sfi_children t) -> resolves sp (render_sfi H y)) ->
  inters = sfi_children t \/ (exists x, In x (sfi_children t) /\ inters = sfi_children x) ->
  forall y, In y inters -> resolves sp (render_sfi H y).
Proof. intros H sp t inters Hk [->|(x & Hx & ->)] y Hy; [exact (Hk y Hy)|exact (resolves_kids H sp x y (Hk x Hx) Hy)]. Qed.

(* the references fetched from the store, as resolved references of the symbolic analysis *)
Definition lift0 (R0 : resolved) : sresolved := map (fun pk : bytes * bytes => (fst pk, DBytes (snd pk))) R0.
Lemma lift_resolved : forall H (R0 : resolved), render_pairs H (lift0 R0) = R0.
Proof.
  intros H. induction R0 as [|[k v] r IH]; [reflexivity|].
  cbn [lift0 map render_pairs fst snd render]. f_equal. exact IH.
Qed.

Section TheoremB.
  Variable H : bytes -> bytes.
  Variable mx : option N.
  Variable UVal : pyval -> Prop.
  Variable U : fn -> Prop.
  Variable RootOK : fn -> list (bytes * option bytes) -> list rv -> Prop.

  Local Notation hv := (hv0 H mx).
  Local Notation hl := (hl0 H mx).
  Local Notation ConsU := (Cons hv hl RootOK).
  Local Notation rd := (render H).
  Local Notation rs := (render_sfi H).

  Hypothesis HU : univ_ok hv hl UVal U RootOK.

  (* the signature terms of the consistent nodes of the universe *)
  Definition node_sig (t : dg) : Prop :=
    exists g A pv R x R1, ConsU g A pv /\ sana hv hl g (skey A) R = inr (x, R1) /\ t = sfi_sig x.

  (* THE cryptographic idealisation: SHA-256 + XOR-fold rendering does not identify two such terms *)
  Definition render_inj_on : Prop := forall t t', node_sig t -> node_sig t' -> rd t = rd t' -> t = t'.
  Hypothesis Hinj : render_inj_on.

  (* what a key denotes: the plain value of a consistent node of the universe with that (rendered) signature - any
     program version, any arguments *)
  Definition Den_U (k : bytes) (v : rv) : Prop :=
    exists g A pv R x R1, ConsU g A pv /\ sana hv hl g (skey A) R = inr (x, R1) /\ rd (sfi_sig x) = k /\ pv_fn g pv = Ret v.

  Lemma den_iff : forall g A pv R x R1, ConsU g A pv -> sana hv hl g (skey A) R = inr (x, R1) ->
    forall v, Den_U (rd (sfi_sig x)) v <-> pv_fn g pv = Ret v.
  Proof.
    intros g A pv R x R1 HC Hs v. split.
    - intros (g2 & A2 & pv2 & R2 & x2 & R12 & HC2 & Hs2 & Hk & Hv).
      assert (Et : sfi_sig x = sfi_sig x2).
      { apply Hinj; [| |symmetry; exact Hk].
        - exists g, A, pv, R, x, R1. repeat split; assumption.
        - exists g2, A2, pv2, R2, x2, R12. repeat split; assumption. }
      destruct (same_sig_content Hs Hs2 Et) as (c & Hc & Hc2).
      rewrite <- Hv. exact (content_determines_value hv hl UVal U RootOK HU g g2 A A2 pv pv2 R R2 c R1 R12 HC HC2 Hc Hc2).
    - intros Hv. exists g, A, pv, R, x, R1. repeat split; assumption.
  Qed.

  Lemma sana_path_wf : forall {g A R t R1}, U g -> sana hv hl g (skey A) R = inr (t, R1) -> sfi_path t = fn_annot g.
  Proof.
    intros g A R t R1 Ug Hs. pose proof (sana_node Hs) as Hn. destruct (fn_is_class g) eqn:Ec.
    - rewrite (proj1 Hn). symmetry. exact (proj1 (proj2 (u_wf _ _ _ _ _ HU g Ug)) Ec).
    - destruct Hn as ([vars exts sts] & _ & Ra & _ & Hb & _). exact (proj1 (sana_body_inv Hb)).
  Qed.

  Lemma sound_fn_first : forall Den sp f pv,
    sound_fn Den sp f pv = match first_body f with Some b => sound_body Den sp b (Env pv [] []) | None => True end.
  Proof. intros Den sp [n tag raises l p a c [|b r]] pv; reflexivity. Qed.

  (* what is asked at a call site, of the keep, the plain call or the by-name mention once applied: the callee is kept
     under the path of the keep or its own, or not at all *)
  Definition sound_site (sp : list (bytes * bytes)) (s : step) (g : fn) (en : env) : Prop :=
    match site_kpath s g with
    | Some q => sound_kept Den_U sp g q (site_pv s en)
    | None => match site_pv s en with Some pv => sound_fn Den_U sp g pv | None => True end
    end.

  Lemma sound_site_step : forall sp s g en, site_callee s = Some g -> sound_site sp s g en -> sound_step Den_U sp s en.
  Proof.
    intros sp [l e g0 a|l g0 [|]|g0|l e p g0 pos kw|p] g en Hg Hx; try discriminate Hg; injection Hg as ->;
      rewrite sound_step_view; first [exact Hx|exact I].
  Qed.

  (* THEOREM B (inner nodes).  A consistent node of the universe, analysed as part of an evaluation whose
     requested-paths map [sp] answers, for every kept path below the node, the signature found there: the hypothesis
     [sound_fn] of EvalProofs.dds_exec_correct HOLDS for Den_U. *)
  Theorem ideal_sound_fn : forall sp g A pv R t R1,
    ConsU g A pv -> sana hv hl g (skey A) R = inr (t, R1) ->
    (forall y, In y (sfi_children t) -> resolves sp (rs y)) ->
    sound_fn Den_U sp g pv.
  Proof.
    intros sp g. induction g as [g IH] using fn_callees_ind. intros A pv R t R1 HC Hs Hk. rewrite sound_fn_first.
    destruct (first_body g) as [[vars exts sts]|] eqn:Eb; [|exact I].
    destruct (sana_fn_steps Hs Eb) as (a & vs & inters & loads & Ra & Ha & Hv & Hst & Hin).
    pose proof (body_resolves H sp t inters Hk Hin) as Hres. rewrite <- (steps_of_list sts) in Hst |- *.
    (* a call site that the plain execution reaches: the analysis has reached it too, the callee is consistent and its
       tree resolves *)
    assert (Hsite : forall pre s post en g', list_of_steps sts = pre ++ s :: post ->
              pv_steps (steps_of pre) (Env pv (map snd vars) []) = inr en -> site_callee s = Some g' -> sound_site sp s g' en).
    { intros pre s post en g' Hl Hex Hg. rewrite Hl, sana_steps_app in Hst.
      destruct (sana_steps hv hl (steps_of pre) _ _ _) as [e|[[i0 l0] R0]] eqn:Hpre; [discriminate Hst|].
      cbn [steps_of] in Hst. rewrite sana_steps_cons in Hst.
      destruct (sana_step hv hl s _ _ _) as [e|[[i1 l1] R1']] eqn:Hstep; [discriminate Hst|].
      destruct (sana_steps_ext Hst) as [more ->].
      destruct (AG_steps_inr (inters := []) (ch := []) eq_refl Hpre) as (ch & Hca & Hsg).
      unfold sound_site. destruct (site_pv s en) as [pv'|] eqn:Hpv; [|destruct (site_kpath s g'); exact I].
      destruct (site_has_end Hg) as [k Hk']. destruct (sana_site Hg Hk' Hsg Hstep) as (ph & named & t' & R' & Hph & Hn & Ht & -> & _).
      assert (HCg : ConsU g' (named, Some (Content ph a l0 ch exts vs)) pv') by (eapply CSite; eassumption).
      assert (Hhere : In (set_path_opt (site_path s) t') ((i0 ++ [set_path_opt (site_path s) t']) ++ more))
        by (apply in_or_app; left; apply in_elt).
      destruct (site_resolves H sp s t' (Hres _ Hhere)) as [Hkids Hkey].
      assert (Hsound : sound_fn Den_U sp g' pv').
      { refine (proj1 (Forall_forall _ _) IH g' _ _ pv' R0 t' R' HCg Ht Hkids).
        rewrite (callees_first _ _ Eb). cbn [body_steps]. rewrite Hl. apply in_flat_map. exists s.
        split; [apply in_elt|exact (site_callee_in Hg)]. }
      destruct (site_kpath s g') as [q|] eqn:Eq; [|exact Hsound]. exists (rd (sfi_sig t')).
      split; [exact (Hkey g' q (sana_path_wf (Cons_U HU HCg) Ht) Eq)|]. split; [exact (den_iff g' _ pv' R0 t' R' HCg Ht)|exact Hsound]. }
    apply (sound_steps_reached Den_U sp (list_of_steps sts)). intros pre s post en Hl Hex.
    destruct (site_callee s) as [g'|] eqn:Hg; [exact (sound_site_step sp s g' en Hg (Hsite pre s post en g' Hl Hex Hg))|].
    destruct s as [| |g'| |p]; try discriminate Hg; [|exact I].
    (* apply(g'): what is asked is what was asked at the earlier by-name mention of g' *)
    destruct (site_ok HU (Cons_U HU HC) Eb Hl) as (_ & _ & _ & (j & _ & Hj) & _).
    apply nth_error_In, in_flat_map in Hj as (s0 & Hs0 & Hm). apply in_split in Hs0 as (pre0 & post0 & ->).
    destruct s0 as [|l g0 ex| | |]; cbn in Hm; try contradiction; destruct Hm as [E|[]]; try discriminate E. injection E as ->.
    rewrite pv_steps_app in Hex. destruct (pv_steps (steps_of pre0) _) as [o|en0] eqn:Ex0; [discriminate Hex|].
    rewrite <- app_assoc in Hl. rewrite sound_step_view. exact (Hsite pre0 (SRef l g' ex) _ en0 g' Hl Ex0 eq_refl).
  Qed.

  Definition styled (f : fn) (sty : style) (x : fi) : fi :=
    match sty with
    | StKeep p => fi_set_path x p
    | StDirect => match fn_annot f with Some p => fi_set_path x p | None => x end
    | StEval => x
    end.

  Lemma styled_spec : forall f sty x, fi_sig (styled f sty x) = fi_sig x /\ fi_children (styled f sty x) = fi_children x /\
    (fi_path x = fn_annot f -> fi_path (styled f sty x) = root_path f sty).
  Proof.
    intros f sty [s q n a l c]. cbn [fi_path]. destruct sty; cbn [styled root_path]; destruct (fn_annot f); repeat split; auto.
  Qed.

  (* THEOREM B (top-level calls).  For a top-level call of the universe whose analysis (symbolic; [ana] is its
     rendering by [sana_faithful]) succeeds and whose store paths are coherent, both hypotheses of
     EvalProofs.dds_call_correct hold for Den_U. *)
  Theorem ideal_root_sound : forall f sty named pv R X R1,
    RootOK f named pv -> sana hv hl f (named, None) R = inr (X, R1) ->
    coherent (styled f sty (rs X)) = true ->
    let x' := styled f sty (rs X) in
    sound_fn Den_U (all_store_paths x') f pv /\ root_sound Den_U (all_store_paths x') x' f sty pv.
  Proof.
    intros f sty named pv R X R1 Hr Hs Hco x'.
    pose proof (coherent_resolves _ Hco) as Hres. fold x' in Hres.
    pose proof (CRoot hv hl RootOK f named pv Hr) as HC.
    pose proof (den_iff f (named, None) pv R X R1 HC Hs) as Hden.
    destruct (styled_spec f sty (rs X)) as (Esig & Ekids & Epath). fold x' in Esig, Ekids, Epath.
    rewrite fi_sig_render in Esig. rewrite fi_children_render in Ekids.
    rewrite fi_path_render, (sana_path_wf (A := (named, None)) (Cons_U HU HC) Hs) in Epath.
    split; [|split; [rewrite Esig; exact Hden|]].
    - apply (ideal_sound_fn _ f (named, None) pv R X R1 HC Hs).
      intros y Hy. apply (resolves_kid _ x' _ Hres). rewrite Ekids. exact (in_map _ _ _ Hy).
    - intros p key Hp Hk. rewrite (resolves_head _ _ _ Hres (eq_trans (Epath eq_refl) Hp)), Esig in Hk.
      injection Hk as <-. exact Hden.
  Qed.
End TheoremB.

(* an accepted analysis (DdsEval.analysis: bytes) is the rendering of a run of the symbolic analysis on the references
   fetched from the store.  L for loads: the conjunct on [fetch_refs], which says where those references R0 come from, is
   for SoundnessLoad.v; without loads [analysis_inv] below, the same statement minus that conjunct, is enough *)
Lemma analysis_invL : forall H mx c f sty pos kw s x sp,
  analysis H mx c f sty pos kw s = inr (x, sp) ->
  exists named R0 X R1, arg_ctx_rt H mx (fn_params f) 0 pos kw = inr named /\
                        fetch_refs (s_paths s) (loads_to_check c f) = Some R0 /\
                        sana (hv0 H mx) (hl0 H mx) f (named, None) (lift0 R0) = inr (X, R1) /\
                        x = styled f sty (render_sfi H X) /\ sp = all_store_paths x.
Proof.
  intros H mx c f sty pos kw s x sp Ha. unfold analysis in Ha.
  destruct (arg_ctx_rt H mx (fn_params f) 0 pos kw) as [e|named]; [discriminate Ha|].
  destruct (fetch_refs (s_paths s) (loads_to_check c f)) as [R0|]; [|discriminate Ha].
  pose proof (sana_faithful H mx f named None (lift0 R0)) as Hf.
  rewrite lift_resolved in Hf. cbn [option_map] in Hf. rewrite Hf in Ha.
  destruct (sana (hv0 H mx) (hl0 H mx) f (named, None) (lift0 R0)) as [e|[X R1]] eqn:Es; [discriminate Ha|].
  exists named, R0, X, R1. split; [reflexivity|]. split; [reflexivity|]. split; [exact Es|].
  destruct (non_terminal_leaves _); [|discriminate Ha]. injection Ha as <- <-. split; reflexivity.
Qed.

Section CorollaryC.
  Variable H : bytes -> bytes.
  Variable mx : option N.
  Variable UVal : pyval -> Prop.
  Variable U : fn -> Prop.
  (* the top-level calls of the universe: dds.eval(f, ...) / dds.keep(p, f, ...) / f(...) for a data function *)
  Variable RootCall : fn -> style -> list pyval -> list (bytes * pyval) -> Prop.

  Local Notation hv := (hv0 H mx).
  Local Notation hl := (hl0 H mx).
  Local Notation bind_top f pos kw :=
    (bind_args (fn_params f) 0 (map RVal pos) (map (fun nv : bytes * pyval => (fst nv, RVal (snd nv))) kw)).

  Definition RootOK_of (f : fn) (named : list (bytes * option bytes)) (pv : list rv) : Prop :=
    exists sty pos kw, RootCall f sty pos kw /\ arg_ctx_rt H mx (fn_params f) 0 pos kw = inr named /\
                       bind_top f pos kw = Some pv.

  Record hist_univ_ok : Prop := {
    h_univ : univ_ok hv hl UVal U RootOK_of;
    (* the cryptographic idealisation *)
    h_inj : render_inj_on H mx RootOK_of;
    (* no dds.load (loads are the subject of C09) *)
    h_noloads : forall f sty pos kw, RootCall f sty pos kw -> no_loads_fn f = true;
    (* no path kept with two different signatures in one evaluation (F12 / F26) *)
    h_coherent : forall f sty pos kw c s x sp, RootCall f sty pos kw ->
        analysis H mx c f sty pos kw s = inr (x, sp) -> coherent x = true
  }.

  Local Notation Den := (Den_U H mx RootOK_of).

  Lemma analysis_inv : forall c f sty pos kw s x sp,
    analysis H mx c f sty pos kw s = inr (x, sp) ->
    exists named R0 X R1, arg_ctx_rt H mx (fn_params f) 0 pos kw = inr named /\
                          sana hv hl f (named, None) R0 = inr (X, R1) /\
                          x = styled f sty (render_sfi H X) /\ sp = all_store_paths x.
  Proof.
    intros c f sty pos kw s x sp Ha.
    destruct (analysis_invL _ _ _ _ _ _ _ _ _ _ Ha) as (named & R0 & X & R1 & Hn & _ & Hs & E). exists named, (lift0 R0), X, R1. auto.
  Qed.

  Hypothesis HH : hist_univ_ok.

  (* the hypothesis [call_hyp] of EvalProofs.history_sound holds for every top-level call of the universe, at every
     store state *)
  Lemma call_hyp_U : forall c f sty pos kw s, RootCall f sty pos kw -> call_hyp Den H mx s (c, f, sty, pos, kw).
  Proof.
    intros c f sty pos kw s Hr. unfold call_hyp. split; [exact (h_noloads HH _ _ _ _ Hr)|].
    intros x sp pv Ha Hev Hb.
    destruct (analysis_inv _ _ _ _ _ _ _ _ Ha) as (named & R0 & X & R1 & Hn & Hs & Ex & Esp).
    assert (Hro : RootOK_of f named pv) by (exists sty, pos, kw; repeat split; assumption).
    pose proof (h_coherent HH _ _ _ _ _ _ _ _ Hr Ha) as Hco. rewrite Ex in Hco.
    destruct (ideal_root_sound H mx UVal U RootOK_of (h_univ HH) (h_inj HH) f sty named pv R0 X R1 Hro Hs Hco) as [Hsf Hrs].
    subst sp x. split; assumption.
  Qed.

  Definition in_universe (cl : call) : Prop := match cl with (c, f, sty, pos, kw) => RootCall f sty pos kw end.

  Lemma calls_hyp_U : forall l s, Forall in_universe l -> calls_hyp Den H mx s l.
  Proof.
    induction l as [|[[[[c f] sty] pos] kw] r IH]; intros s Hl; [exact I|].
    inversion Hl as [|? ? Hc Hr]; subst. cbn [calls_hyp]. split; [apply call_hyp_U; exact Hc|apply IH; exact Hr].
  Qed.

  Lemma history_plain : forall s0 l, StoreOK Den s0 -> Forall in_universe l ->
    StoreOK Den (run_calls H mx l s0) /\
    forall l1 c f sty pos kw l2 x sp pv,
      l = l1 ++ (c, f, sty, pos, kw) :: l2 ->
      analysis H mx c f sty pos kw (run_calls H mx l1 s0) = inr (x, sp) ->
      has_stage Eval (c_stages c) = true ->
      bind_top f pos kw = Some pv ->
      fst (dds_call H mx c f sty pos kw (run_calls H mx l1 s0)) = pv_fn f pv.
  Proof.
    intros s0 l H0.
    assert (Hok : forall l, Forall in_universe l -> StoreOK Den (run_calls H mx l s0))
      by (intros l0 Hl; apply history_sound; [exact H0|apply calls_hyp_U; exact Hl]).
    intros Hl. split; [exact (Hok l Hl)|].
    intros l1 c f sty pos kw l2 x sp pv -> Ha Hev Hb.
    apply Forall_app in Hl as [Hl1 Hl2]. pose proof (Forall_inv Hl2) as Hc. cbn [in_universe] in Hc.
    destruct (call_hyp_U c f sty pos kw (run_calls H mx l1 s0) Hc) as [Hnl Hh].
    destruct (Hh x sp pv Ha Hev Hb) as [Hrs Hsf].
    exact (proj1 (dds_call_correct Den H mx c f sty pos kw _ x sp pv Hnl (Hok l1 Hl1) Ha Hev Hb Hrs Hsf)).
  Qed.

  (* COROLLARY C.  Every history of top-level calls of the universe, from the empty store: the store stays sound, and
     every call that runs (analysis accepted, EVAL stage, arguments bind) returns the plain value of its function on the
     bound arguments - whatever was evaluated before: other program versions, other variable values, other arguments.
     No sound_fn / root_sound / call_hyp premise. *)
  Theorem C01_end_to_end_lemma : forall l, Forall in_universe l ->
    StoreOK Den (run_calls H mx l st_empty) /\
    forall l1 c f sty pos kw l2 x sp pv,
      l = l1 ++ (c, f, sty, pos, kw) :: l2 ->
      analysis H mx c f sty pos kw (run_calls H mx l1 st_empty) = inr (x, sp) ->
      has_stage Eval (c_stages c) = true ->
      bind_top f pos kw = Some pv ->
      fst (dds_call H mx c f sty pos kw (run_calls H mx l1 st_empty)) = pv_fn f pv.
  Proof. intros l. exact (history_plain st_empty l (StoreOK_empty Den)). Qed.

  Lemma arg_ctx_rt_cons : forall p r idx pos kw named, arg_ctx_rt H mx (p :: r) idx pos kw = inr named ->
    exists ho l, named = (p_name p, ho) :: l /\ arg_ctx_rt H mx r (S idx) pos kw = inr l /\
      match nth_error pos idx with
      | Some v => hash_opt H mx (rt_value v)
      | None => match kw_lookup (p_name p) kw with
                | Some v => hash_opt H mx (rt_value v)
                | None => match p_default p with
                          | Some d => hash_opt H mx (subst_default d)
                          | None => match p_kind p with VARKW => inr None | _ => inl AEMissing end
                          end
                end
      end = inr ho.
  Proof.
    intros p r idx pos kw named Hs. cbn [arg_ctx_rt] in Hs.
    destruct (p_kind p); try discriminate Hs;
      (destruct (match nth_error pos idx with Some _ => _ | None => _ end) as [e|ho]; [discriminate Hs|];
       destruct (arg_ctx_rt H mx r (S idx) pos kw) as [e|l]; [discriminate Hs|]; injection Hs as <-; exists ho, l; auto).
  Qed.

  (* top-level arguments: readable values give [kmatch] (a way to establish the field [u_root]) *)
  Lemma root_kmatch : forall (pos : list pyval) (kw : list (bytes * pyval)) ps idx named pv,
    params_ok UVal ps -> Forall (rt_ok UVal) pos -> Forall (fun nv => rt_ok UVal (snd nv)) kw ->
    arg_ctx_rt H mx ps idx pos kw = inr named ->
    bind_args ps idx (map RVal pos) (map (fun nv : bytes * pyval => (fst nv, RVal (snd nv))) kw) = Some pv ->
    kmatch hv UVal named pv.
  Proof.
    intros pos kw. induction ps as [|p r IH]; intros idx named pv Hps Hpos Hkw Hs Hb.
    - injection Hs as <-. injection Hb as <-. constructor.
    - inversion Hps as [|? ? Hp Hr]; subst.
      apply arg_ctx_rt_cons in Hs as (ho & l & -> & Hrest & Hslot). apply bind_args_cons in Hb as (v & pl & -> & Eb & Hv).
      constructor; [|exact (IH (S idx) l pl Hr Hpos Hkw Hrest Eb)].
      rewrite nth_error_map, (kw_lookup_map _ _ RVal) in Hv.
      destruct (nth_error pos idx) as [w|] eqn:En; cbn [option_map] in Hv.
      + injection Hv as <-. exact (hash_kentry hv UVal _ w _ ho (proj1 (Forall_forall _ _) Hpos _ (nth_error_In _ _ En)) Hslot).
      + destruct (kw_lookup (p_name p) kw) as [w|] eqn:Ek; cbn [option_map] in Hv.
        * injection Hv as <-. destruct (kw_lookup_In _ _ _ _ Ek) as [k0 Hk0].
          exact (hash_kentry hv UVal _ w _ ho (proj1 (Forall_forall _ _) Hkw _ Hk0) Hslot).
        * destruct (p_default p) as [d|]; [|discriminate Hv]. injection Hv as <-. exact (hash_kentry hv UVal _ d _ ho Hp Hslot).
  Qed.
End CorollaryC.

(* The regression theorem of finding F30, then refutations: what fails without the hypotheses (all by computation). *)
(* FINDING F30 (found by this proof, reproduced on the real library, since REPAIRED by a fix in /repo; the model
   follows the fix: Sig.unbind).  A plain call g(5) of a function whose parameters all have defaults: the analysis used to
   bind x to its default (get_arg_ctx_ast(g, [], {})), every argument was then "known", the call-site context was dropped,
   and the explicit argument was in no signature below g:
       def h(x): return ("h", x)
       def g(x=3): return dds.keep("/p", h, x)
       def f(): return g(5)          # edited to g(7)
   after evaluating the first version, the second one was served the stale ("h", 5).  With the fix a parameter bound
   explicitly by a plain call is unknown: the call site (whose text contains the argument) is in the signature of g
   and of everything below it.  The regression theorem on this very program: *)
Definition rf_H (b : bytes) : bytes := b.
Definition rf_h : fn :=
  Fn (bs "m/h") (bs "h") None [bs "def h(x):"; bs "    return ('h', x)"; bs ""] [Param (bs "x") POK None] None false
     (BCons (Body [] [] SNil) BNil).
Definition rf_g : fn :=
  Fn (bs "m/g") (bs "g") None [bs "def g(x=3):"; bs "    return dds.keep('/p', h, x)"; bs ""]
     [Param (bs "x") POK (Some (VInt 3))] None false
     (BCons (Body [] [] (SCons (SKeep 1 1 (bs "/p") rf_h [(EParam 0, ARun)] []) SNil)) BNil).
Definition rf_f (lit : Z) (text : string) : fn :=
  Fn (bs "m/f") (bs "f") None [bs "def f():"; bs text; bs ""] [] None false
     (BCons (Body [] [] (SCons (SCall 1 1 rf_g [ELit (VInt lit)]) SNil)) BNil).
Definition rf_f5 : fn := rf_f 5 "    return g(5)".
Definition rf_f7 : fn := rf_f 7 "    return g(7)".
Definition rf_cfg : config := Config [Analysis; StoreInspect; Eval; StoreCommit; PathCommit] false.

(* the signature term of the kept node h below g, analysed from f *)
Definition rf_kept_sig (f : fn) : option dg :=
  match sana ex_hv ex_hl f ([], None) [] with
  | inr (SFI _ _ _ _ _ [SFI _ _ _ _ _ [xh]], _) => Some (sfi_sig xh)
  | _ => None
  end.

Example plain_call_explicit_argument_tracked :
  (* the kept node below g has a signature in both versions, and they differ (ideal value / line hashes) ... *)
  (exists t5 t7, rf_kept_sig rf_f5 = Some t5 /\ rf_kept_sig rf_f7 = Some t7 /\ t5 <> t7) /\
  (* ... the argument context of g at the call g(5): x is unknown ... *)
  site_named ex_hv (SCall 1 1 rf_g [ELit (VInt 5)]) = inr [(bs "x", None)] /\
  (* ... end to end, through the state machine: the second version, evaluated after the first, returns ITS plain value *)
  (let s1 := snd (dds_call rf_H None rf_cfg rf_f5 StEval [] [] st_empty) in
   fst (dds_call rf_H None rf_cfg rf_f7 StEval [] [] s1) = pv_fn rf_f7 [] /\
   pv_fn rf_f7 [] <> pv_fn rf_f5 []).
Proof.
  split.
  - do 2 eexists. split; [vm_compute; reflexivity|]. split; [vm_compute; reflexivity|]. intro Hc. discriminate Hc.
  - split; [vm_compute; reflexivity|]. split; [vm_compute; reflexivity|intro Hc; vm_compute in Hc; discriminate Hc].
Qed.

(* (known: F04-marker) a literal None and the literal marker string have the same argument entry *)
Example marker_literal_refuted : forall hv,
  sprocess_arg hv (ALit VNone) = sprocess_arg hv (ALit (VStr default_marker)) /\ VNone <> VStr default_marker.
Proof. intros hv. split; [reflexivity|discriminate]. Qed.

(* the real value hash is not injective on all values (bool / int, str / path / date, list / tuple): this is why
   [u_hv_inj] is restricted to a set UVal (cf. the F03 family).  g(True) and g(1) share the signature of g. *)
Example hv_collision_refuted : forall H mx s l,
  hv0 H mx (VBool true) = hv0 H mx (VInt 1) /\ hv0 H mx (VStr s) = hv0 H mx (VPath s) /\
  hv0 H mx (VList l) = hv0 H mx (VTuple l).
Proof. intros H mx s l. repeat split; reflexivity. Qed.

(* [SApply g] is executed, not analysed: the analysis has seen only the earlier by-name mention with the name of g.  If g is
   not THE function mentioned there (same tree), it is in no signature: the second conjunct of [wf_step] for SApply is
   needed.  (Not a dds finding: in Python apply(g) after a mention of g is that g.) *)
Definition rf_a1 : fn :=
  Fn (bs "m/a") (bs "a1") None [bs "def a():"; bs "    return 1"; bs ""] [] None false (BCons (Body [] [] SNil) BNil).
Definition rf_a2 : fn :=
  Fn (bs "m/a") (bs "a2") None [bs "def a():"; bs "    return 2"; bs ""] [] None false (BCons (Body [] [] SNil) BNil).
Definition rf_ap (g : fn) : fn :=
  Fn (bs "m/c") (bs "c") None [bs "def c():"; bs "    return apply(a)"; bs ""] [] None false
     (BCons (Body [] [] (SCons (SRef 1 rf_a1 false) (SCons (SApply g) SNil))) BNil).
Example apply_unlinked_refuted :
  cana ex_hv ex_hl (rf_ap rf_a1) ([], None) [] = cana ex_hv ex_hl (rf_ap rf_a2) ([], None) [] /\
  pv_fn (rf_ap rf_a1) [] <> pv_fn (rf_ap rf_a2) [].
Proof. split; [vm_compute; reflexivity|intro Hc; vm_compute in Hc; discriminate Hc]. Qed.

(* (known: F12) one path kept with two signatures in one evaluation: [coherent] fails *)
Definition rf_two : fn :=
  Fn (bs "m/t") (bs "t") None [bs "def t(a, b):"; bs "    return (dds.keep('/p', h, a), dds.keep('/p', h, b))"; bs ""]
     [Param (bs "a") POK None; Param (bs "b") POK None] None false
     (BCons (Body [] [] (SCons (SKeep 1 1 (bs "/p") rf_h [(EParam 0, ARun)] [])
                        (SCons (SKeep 1 1 (bs "/p") rf_h [(EParam 1, ARun)] []) SNil))) BNil).
Example same_path_twice_refuted :
  match analysis rf_H None rf_cfg rf_two StEval [VInt 1; VInt 2] [] st_empty with
  | inr (x, _) => coherent x = false
  | inl _ => False
  end /\
  fst (dds_call rf_H None rf_cfg rf_two StEval [VInt 1; VInt 2] [] st_empty) <> pv_fn rf_two [RVal (VInt 1); RVal (VInt 2)].
Proof. split; [vm_compute; reflexivity|intro Hc; vm_compute in Hc; discriminate Hc]. Qed.

(* Non-vacuity: a concrete universe satisfying every hypothesis.
   Three versions of a program:  def g(x): return ("g", x)      V = "a"
                                  def f(): return dds.keep('/p', g, V)
   v1 as above; v2 = the text of g edited (returns ("g2", x)); v3 = the value of V edited ("b").
   The kept node g receives a run-time argument (the variable V).  Top-level calls: dds.eval(f) for each version.
   The digest function is a small mixing hash written in Gallina (a SHA-256 built on primitive integers would show
   up in Print Assumptions); with the identity "hash" the XOR-fold DOES collide on this universe (f of v1 / v3). *)
Definition sx_M : N := 2305843009213693951%N.
Definition sx_mix (x : N) : N := ((x * x + 31 * x + 11) mod sx_M)%N.
Definition sx_H (b : bytes) : bytes :=
  hex_of_N (sx_mix (sx_mix (sx_mix (fold_left (fun acc c => ((acc * 1000003 + N_of_ascii c + 1) mod sx_M)%N) b 7%N)))).
Definition sx_hv : pyval -> hres := hv0 sx_H None.
Definition sx_hl : list bytes -> hres := hl0 sx_H None.

Definition sx_lg1 : list bytes := [bs "def g(x):"; bs "    return ('g', x)"; bs ""].
Definition sx_lg2 : list bytes := [bs "def g(x):"; bs "    return ('g2', x)"; bs ""].
Definition sx_lf : list bytes := [bs "def f():"; bs "    return dds.keep('/p', g, V)"; bs ""].
Definition sx_g1 : fn :=
  Fn (bs "m/g") (bs "g") None sx_lg1 [Param (bs "x") POK None] None false (BCons (Body [] [] SNil) BNil).
Definition sx_g2 : fn :=
  Fn (bs "m/g") (bs "g2") None sx_lg2 [Param (bs "x") POK None] None false (BCons (Body [] [] SNil) BNil).
Definition sx_keep (g : fn) : step := SKeep 1 1 (bs "/p") g [(EVar 0, ARun)] [].
Definition sx_f (g : fn) (v : bytes) : fn :=
  Fn (bs "m/f") (bs "f") None sx_lf [] None false (BCons (Body [(bs "V", VStr v)] [] (SCons (sx_keep g) SNil)) BNil).
Definition sx_f1 : fn := sx_f sx_g1 (bs "a").
Definition sx_f2 : fn := sx_f sx_g2 (bs "a").     (* the callee's text edited *)
Definition sx_f3 : fn := sx_f sx_g1 (bs "b").     (* the variable's value edited *)

Definition sx_UVal (v : pyval) : Prop := v = VStr (bs "a") \/ v = VStr (bs "b").
Definition sx_U (f : fn) : Prop := f = sx_f1 \/ f = sx_f2 \/ f = sx_f3 \/ f = sx_g1 \/ f = sx_g2.
Definition sx_RootCall (f : fn) (sty : style) (pos : list pyval) (kw : list (bytes * pyval)) : Prop :=
  (f = sx_f1 \/ f = sx_f2 \/ f = sx_f3) /\ sty = StEval /\ pos = [] /\ kw = [].
Definition sx_RootOK := RootOK_of sx_H None sx_RootCall.

Definition sx_cfg : config := Config [Analysis; StoreInspect; Eval; StoreCommit; PathCommit] false.
Definition sx_call (f : fn) : call := (sx_cfg, f, StEval, [], []).
(* v1, then the callee edited, then the variable edited, then back to v1 *)
Definition sx_history : list call := [sx_call sx_f1; sx_call sx_f2; sx_call sx_f3; sx_call sx_f1].

(* what the analysis returns for a root: its signature, and the kept node g below it with its signature.  Everything else
   that needs a digest of this universe (no collision among the six signature terms, coherence, the history) reads it here. *)
Definition sx_fi (sf sg : string) : fi := FI (bs sf) None (bs "m/f") 0 [] [FI (bs sg) (Some (bs "/p")) (bs "m/g") 1 [] []].
Definition sx_fi1 : fi := sx_fi "699d640f0095496" "c96fe936eeda0dc".
Definition sx_fi2 : fi := sx_fi "13aa30343e38a61f" "afbe2c50f23541".
Definition sx_fi3 : fi := sx_fi "2ff831e85c1c756" "15f10a5bff01e771".
Definition sx_fis : list (fn * fi) := [(sx_f1, sx_fi1); (sx_f2, sx_fi2); (sx_f3, sx_fi3)].

(* no dds.load: the analysis of a root does not look at the store *)
Lemma sx_analysis : forall s, Forall (fun fx => analysis sx_H None sx_cfg (fst fx) StEval [] [] s = inr (snd fx, all_store_paths (snd fx))) sx_fis.
Proof. intros s. repeat (constructor; [vm_compute; reflexivity|]). constructor. Qed.

Lemma sx_root_analysis : forall f s, f = sx_f1 \/ f = sx_f2 \/ f = sx_f3 ->
  exists x, In (f, x) sx_fis /\ analysis sx_H None sx_cfg f StEval [] [] s = inr (x, all_store_paths x).
Proof.
  intros f s Hf. pose proof (sx_analysis s) as Ha. rewrite Forall_forall in Ha.
  destruct Hf as [ -> | [ -> | -> ] ]; [exists sx_fi1|exists sx_fi2|exists sx_fi3];
    (split; [|apply (Ha (_, _))]); cbn; auto.
Qed.

Definition sx_texts : list (list bytes) := [sx_lf; sx_lg1; sx_lg2].
Lemma sx_hl_checked : hl_inj_onb sx_H sx_texts = true.
Proof. vm_compute. reflexivity. Qed.

Lemma sx_lines_of : forall f, sx_U f -> In (fn_lines f) sx_texts.
Proof. intros f [ -> | [ -> | [ -> | [ -> | -> ] ] ] ]; cbn; auto. Qed.

(* the versions: the kept callee and the value of V; per version the root and the kept node below it *)
Definition sx_versions : list (fn * bytes) := [(sx_g1, bs "a"); (sx_g2, bs "a"); (sx_g1, bs "b")].
Definition sx_site (v : bytes) : content :=
  Content (hash_of (sx_hl (firstn 2 sx_lf))) (ArgsKnown []) [] [] [] [(bs "V", hash_of (sx_hv (VStr v)))].
Definition sx_named : list (bytes * option bytes) := [(bs "x", None)].
Definition sx_root (gv : fn * bytes) : fn * cargctx * list rv := (sx_f (fst gv) (snd gv), ([], None), []).
Definition sx_kept (gv : fn * bytes) : fn * cargctx * list rv :=
  (fst gv, (sx_named, Some (sx_site (snd gv))), [RVal (VStr (snd gv))]).
Definition sx_nodes : list (fn * cargctx * list rv) := flat_map (fun gv => [sx_root gv; sx_kept gv]) sx_versions.

Lemma sx_root_version : forall f, f = sx_f1 \/ f = sx_f2 \/ f = sx_f3 ->
  exists gv, In gv sx_versions /\ f = sx_f (fst gv) (snd gv).
Proof. intros f [ -> | [ -> | -> ] ]; eexists (_, _); (split; [|reflexivity]); cbn; auto. Qed.

Lemma sx_cons_enum : forall g A pv, Cons sx_hv sx_hl sx_RootOK g A pv -> In (g, A, pv) sx_nodes.
Proof.
  intros g A pv HC.
  induction HC as [f named pv Hr|f Af pvf vars exts sts af vs Rf pre s post ch loads R1 en g k ph named pv
                     Hf IH Hfb Hl Haf Hvs Hca Hpv Hg Hk Hph Hn Hspv]; apply in_flat_map.
  - destruct Hr as (sty & pos & kw & [Hf [ -> [ -> -> ] ] ] & Hn & Hb).
    destruct (sx_root_version f Hf) as (gv & Hin & ->). cbn in Hn, Hb. injection Hn as <-. injection Hb as <-.
    exists gv. split; [exact Hin|left; reflexivity].
  - apply in_flat_map in IH. destruct IH as ([g0 v] & Hin & [E|[E|[]]]); injection E as <- <- <-.
    + (* the caller is a root f(g0, v): its one step is the keep of g0; the digests stay symbolic *)
      exists (g0, v). split; [exact Hin|right; left]. cbn in Hfb. injection Hfb as <- <- <-. cbn [list_of_steps] in Hl.
      destruct pre as [|s0 pre]; [|destruct pre; discriminate Hl]. injection Hl as <- <-.
      apply clines_hash_of in Hph. apply cvars_hash_of in Hvs. cbn in Haf, Hca, Hpv, Hg, Hk.
      injection Haf as <-. injection Hca as <- <- <-. injection Hpv as <-. injection Hg as <-. injection Hk as <-. subst ph vs.
      destruct Hin as [E|[E|[E|[]]]]; injection E as <- <-; cbn in Hn, Hspv; injection Hn as <-; injection Hspv as <-; reflexivity.
    + (* the caller is a callee g0: no steps *)
      exfalso. destruct Hin as [E|[E|[E|[]]]]; injection E as <- <-; cbn in Hfb; injection Hfb as <- <- <-;
        destruct pre; discriminate Hl.
Qed.

Definition sx_X (f : fn) : sfi :=
  match sana sx_hv sx_hl f ([], None) [] with inr (X, _) => X | inl _ => SFI (DBytes []) None [] 0 [] [] end.
Definition sx_terms : list dg := flat_map (fun fx => sfi_sigs (sx_X (fst fx))) sx_fis.

(* No dds.load in this universe: the references resolved so far play no part in the analysis of a node, and the kept node
   is analysed below its root as it is by itself.  Both sides unfold in step; the digests are the same terms on both
   sides and are not evaluated. *)
Lemma sx_node_terms : Forall2 (fun n t => forall R, option_map sfi_sig (sfi_of (sana sx_hv sx_hl (fst (fst n)) (skey (snd (fst n))) R)) = Some t)
                              sx_nodes sx_terms.
Proof. repeat (constructor; [intros R; reflexivity|]). constructor. Qed.

Lemma sx_node_sig_enum : forall t, node_sig sx_H None sx_RootOK t -> In t sx_terms.
Proof.
  intros t (g & A & pv & R & x & R1 & HC & Hs & ->). apply sx_cons_enum in HC.
  destruct (Forall2_In_l _ _ _ _ _ _ sx_node_terms HC) as (t & Ht & E). specialize (E R). cbn [fst snd] in E.
  unfold sx_hv, sx_hl in E. rewrite Hs in E. injection E as <-. exact Ht.
Qed.

(* the six terms render to the six signatures of [sx_fis] *)
Lemma sx_rendered : Forall (fun fx => render_sfi sx_H (sx_X (fst fx)) = snd fx) sx_fis.
Proof.
  apply Forall_forall. intros [f x] Hin. cbn [fst snd].
  pose proof (sx_analysis st_empty) as Ha. rewrite Forall_forall in Ha. specialize (Ha _ Hin). cbn [fst snd] in Ha.
  destruct (analysis_inv _ _ _ _ _ _ _ _ _ _ Ha) as (named & R0 & X & R1 & Hn & Hs & -> & _).
  assert (E : sfi_of (sana sx_hv sx_hl f ([], None) R0) = Some (sx_X f)).
  { destruct Hin as [E0|[E0|[E0|[]]]]; injection E0 as <- _; reflexivity. }
  assert (named = []) by (destruct Hin as [E0|[E0|[E0|[]]]]; injection E0 as <- _; cbn in Hn; congruence). subst named.
  unfold sx_hv, sx_hl in E. rewrite Hs in E. injection E as <-. reflexivity.
Qed.

Lemma sx_terms_rendered : map (render sx_H) sx_terms = flat_map (fun fx => fi_sigs (snd fx)) sx_fis.
Proof.
  unfold sx_terms. pose proof sx_rendered as Hr. induction Hr as [|fx l E _ IH]; [reflexivity|].
  cbn [flat_map]. rewrite map_app, render_sfi_sigs, E, IH. reflexivity.
Qed.

Lemma sx_terms_checked : List.length sx_terms = 6 /\ nodupb (map (render sx_H) sx_terms) = true.
Proof. split; [reflexivity|rewrite sx_terms_rendered; reflexivity]. Qed.

Lemma sx_wf_body_f : forall g v, sx_UVal (VStr v) -> wf_body sx_UVal (Body [(bs "V", VStr v)] [] (SCons (sx_keep g) SNil)).
Proof.
  intros g v Hv. split; [constructor; [exact Hv|constructor]|]. cbn. split; [|exact I].
  split; [constructor; [exact I|constructor]|constructor].
Qed.
Lemma sx_wf_body_g : wf_body sx_UVal (Body [] [] SNil).
Proof. split; [constructor|exact I]. Qed.

Lemma sx_univ_ok : univ_ok sx_hv sx_hl sx_UVal sx_U sx_RootOK.
Proof.
  constructor.
  - (* closed *)
    intros f g [ -> | [ -> | [ -> | [ -> | -> ] ] ] ] Hin; cbn in Hin; try contradiction;
      destruct Hin as [<-|[]]; unfold sx_U; auto 6.
  - (* well-formed *)
    intros f [ -> | [ -> | [ -> | [ -> | -> ] ] ] ]; (split; [repeat constructor|split; [intro Hc; discriminate Hc|]]); cbn;
      first [apply sx_wf_body_g | apply sx_wf_body_f; unfold sx_UVal; auto].
  - (* the text determines the skeleton *)
    intros f f' [ -> | [ -> | [ -> | [ -> | -> ] ] ] ] [ -> | [ -> | [ -> | [ -> | -> ] ] ] ] Hl;
      first [reflexivity | (exfalso; vm_compute in Hl; discriminate Hl)].
  - (* the prefix determines the skeleton up to the call *)
    intros f f' pre s post pre' s' post' k k' Uf Uf' Hfs Hfs' _ _ _ _.
    assert (Hone : forall f0 pre0 s0 post0, sx_U f0 -> first_steps f0 = Some (pre0 ++ s0 :: post0) ->
              fn_params f0 = [] /\ pre0 = [] /\ exists g, s0 = sx_keep g).
    { intros f0 pre0 s0 post0 Uf0 E. destruct Uf0 as [ -> | [ -> | [ -> | [ -> | -> ] ] ] ]; cbn in E; injection E as E.
      1,2,3: (* a root: its one step is the keep *)
        destruct pre0 as [|s1 pre0]; [|destruct pre0; discriminate E]; injection E as <- _;
        (split; [reflexivity|split; [reflexivity|eexists; reflexivity]]).
      all: (* a callee has no step *) destruct pre0; discriminate E. }
    destruct (Hone _ _ _ _ Uf Hfs) as (-> & -> & g & ->). destruct (Hone _ _ _ _ Uf' Hfs') as (-> & -> & g' & ->).
    split; reflexivity.
  - (* line hashing injective on the prefixes of the universe *)
    intros f f' n n' h Uf Uf'.
    exact (hl_inj_on_prefixes sx_H sx_texts sx_hl_checked _ _ n n' h (sx_lines_of f Uf) (sx_lines_of f' Uf')).
  - (* value hashing injective on UVal *)
    intros v w h [ -> | -> ] [ -> | -> ] E1 E2; try reflexivity; exfalso; vm_compute in E1, E2; congruence.
  - (* top-level calls *)
    intros f named pv (sty & pos & kw & [Hf [ -> [ -> -> ] ] ] & Hn & Hb). split.
    + unfold sx_U. destruct Hf as [ -> | [ -> | -> ] ]; auto.
    + destruct Hf as [ -> | [ -> | -> ] ]; cbn in Hn, Hb; injection Hn as <-; injection Hb as <-; constructor.
Qed.

Theorem sx_universe_ok : hist_univ_ok sx_H None sx_UVal sx_U sx_RootCall.
Proof.
  constructor.
  - exact sx_univ_ok.
  - (* rendering is injective on the six signature terms *)
    intros t t' Ht Ht' Hr.
    exact (nodupb_inj _ (render sx_H) sx_terms (proj2 sx_terms_checked) t t'
                      (sx_node_sig_enum t Ht) (sx_node_sig_enum t' Ht') Hr).
  - (* no loads *)
    intros f sty pos kw [[ -> | [ -> | -> ] ] _]; reflexivity.
  - (* coherent store paths: one kept path per evaluation *)
    intros f sty pos kw c s x sp [Hf [ -> [ -> -> ] ] ] Ha.
    destruct (sx_root_analysis f s Hf) as (x0 & Hin & Ha0).
    assert (Ec : analysis sx_H None c f StEval [] [] s = analysis sx_H None sx_cfg f StEval [] [] s).
    { unfold analysis. destruct Hf as [ -> | [ -> | -> ] ]; destruct c as [st []]; reflexivity. }
    rewrite Ec, Ha0 in Ha. injection Ha as <- _.
    destruct Hin as [E|[E|[E|[]]]]; injection E as _ <-; reflexivity.
Qed.

Lemma sx_call_after : forall f x s, In (f, x) sx_fis -> dds_call sx_H None sx_cfg f StEval [] [] s = call_after sx_cfg f x s.
Proof.
  intros f x s Hin. pose proof (sx_analysis s) as Ha. rewrite Forall_forall in Ha.
  apply dds_call_after; [exact (Ha _ Hin)|reflexivity|]. destruct Hin as [E|[E|[E|[]]]]; injection E as <- _; reflexivity.
Qed.

Lemma sx_history_in_universe : Forall (in_universe sx_RootCall) sx_history.
Proof.
  unfold sx_history. repeat (apply Forall_cons; [cbn; unfold sx_RootCall; repeat split; auto|]). apply Forall_nil.
Qed.

(* every call of the history returns the plain value of ITS version, and the store stays sound.  The premises of
   C01_end_to_end_lemma (analysis accepted, EVAL, arguments bind) are discharged by computation: the statement is not
   vacuous.  In the last call the kept node g is served from the store (the log shows g ran once for v1). *)
Example sx_end_to_end :
  StoreOK (Den_U sx_H None sx_RootOK) (run_calls sx_H None sx_history st_empty) /\
  fst (dds_call sx_H None sx_cfg sx_f1 StEval [] [] st_empty) = pv_fn sx_f1 [] /\
  fst (dds_call sx_H None sx_cfg sx_f2 StEval [] [] (run_calls sx_H None [sx_call sx_f1] st_empty)) = pv_fn sx_f2 [] /\
  fst (dds_call sx_H None sx_cfg sx_f3 StEval [] [] (run_calls sx_H None [sx_call sx_f1; sx_call sx_f2] st_empty))
    = pv_fn sx_f3 [] /\
  fst (dds_call sx_H None sx_cfg sx_f1 StEval [] []
                (run_calls sx_H None [sx_call sx_f1; sx_call sx_f2; sx_call sx_f3] st_empty)) = pv_fn sx_f1 [] /\
  pv_fn sx_f1 [] <> pv_fn sx_f2 [] /\ pv_fn sx_f1 [] <> pv_fn sx_f3 [] /\
  s_log (run_calls sx_H None sx_history st_empty) = [bs "g"; bs "f"; bs "g2"; bs "f"; bs "g"; bs "f"; bs "f"].
Proof.
  destruct (C01_end_to_end_lemma sx_H None sx_UVal sx_U sx_RootCall sx_universe_ok sx_history sx_history_in_universe)
    as [Hok Hcalls].
  split; [exact Hok|].
  assert (Hone : forall l1 f l2, f = sx_f1 \/ f = sx_f2 \/ f = sx_f3 -> sx_history = l1 ++ sx_call f :: l2 ->
            fst (dds_call sx_H None sx_cfg f StEval [] [] (run_calls sx_H None l1 st_empty)) = pv_fn f []).
  { intros l1 f l2 Hf El. destruct (sx_root_analysis f (run_calls sx_H None l1 st_empty) Hf) as (x & _ & Ha).
    apply (Hcalls l1 sx_cfg f StEval [] [] l2 _ _ [] El Ha eq_refl).
    destruct Hf as [ -> | [ -> | -> ] ]; reflexivity. }
  split; [apply (Hone [] sx_f1 [sx_call sx_f2; sx_call sx_f3; sx_call sx_f1]); auto|].
  split; [apply (Hone [sx_call sx_f1] sx_f2 [sx_call sx_f3; sx_call sx_f1]); auto|].
  split; [apply (Hone [sx_call sx_f1; sx_call sx_f2] sx_f3 [sx_call sx_f1]); auto|].
  split; [apply (Hone [sx_call sx_f1; sx_call sx_f2; sx_call sx_f3] sx_f1 []); auto|].
  split; [intro Hc; vm_compute in Hc; discriminate Hc|].
  split; [intro Hc; vm_compute in Hc; discriminate Hc|].
  (* the history, call by call: the analysis of each call is [sx_analysis], the rest evaluates without a digest *)
  unfold sx_history, sx_call. cbn [run_calls do_call].
  rewrite !(sx_call_after sx_f1 sx_fi1), (sx_call_after sx_f2 sx_fi2), (sx_call_after sx_f3 sx_fi3) by (cbn; auto).
  vm_compute. reflexivity.
Qed.
