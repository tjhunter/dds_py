(* Soundness of signatures: Theorem A - content determines the plain value.
   Over a universe satisfying [univ_ok] (SoundnessDefs.v):
   - [body_determines_value] (A1): two analysed nodes with the same content are the same function of their parameter
     values (and have the same parameters);
   - [args_determined] (A2): two consistent argument contexts with the same argument content bind the same values;
   - [content_determines_value] (Theorem A) and [content_determines_value_known] (all arguments known).
   Builds on SoundnessDefs.v and SoundnessSite.v.  Used by Soundness.v (Theorem B rests on Theorem A) and Properties/C01c.v;
   SoundnessLoadA.v uses the lemmas about one universe ([same_content_skel], [site_ok], [site_skel], [site_kmatch],
   [kmatch_inj], [cvars_values], ...), not Theorem A itself, which it proves again with loads; SoundnessLoad.v uses
   [same_content_same_lines]. *)
From Coq Require Import List Ascii String ZArith NArith Bool Lia.
From DDS Require Import Base.Bytes Extracted.ConstHash L0_Hash.PyVal L0_Hash.DdsHash L1_Args.ArgCtx
     L3_Sig.Program L3_Sig.Sig L3_Sig.SigTree L3_Sig.SigTreeProofs
     L4_Eval.Stages L4_Eval.DdsEval L4_Eval.EvalSpec L4_Eval.EvalProofs L4_Eval.SoundnessDefs L4_Eval.SoundnessSite.
Import ListNotations.

Lemma kw_lookup_map : forall (A B : Type) (f : A -> B) n (kw : list (bytes * A)),
  kw_lookup n (map (fun nk => (fst nk, f (snd nk))) kw) = option_map f (kw_lookup n kw).
Proof.
  intros A B f n. induction kw as [|[k v] r IH]; [reflexivity|].
  cbn [map kw_lookup fst snd]. destruct (bytes_eqb n k); [reflexivity|exact IH].
Qed.

Lemma Forall2_nth : forall (A B : Type) (R : A -> B -> Prop) l l' j x y,
  Forall2 R l l' -> nth_error l j = Some x -> nth_error l' j = Some y -> R x y.
Proof.
  intros A B R l l' j x y H. revert j. induction H as [|a b l l' Hab _ IH]; intros [|j] Hx Hy; try discriminate Hx.
  - injection Hx as <-. injection Hy as <-. exact Hab.
  - exact (IH j Hx Hy).
Qed.

Lemma pv_fn_first : forall f pv,
  pv_fn f pv = match first_body f with
               | Some b => match pv_body b (Env pv [] []) with inl o => o | inr en => fn_result (fn_tag f) (fn_raises f) en end
               | None => LowErr "no-body"
               end.
Proof. intros [n tag raises l p a c [|b r]] pv; reflexivity. Qed.

Lemma pv_call_agree : forall g g' en pvo,
  (forall pv, pv_fn g pv = pv_fn g' pv) -> pv_call en g pvo = pv_call en g' pvo.
Proof. intros g g' en [pv|] H; [|reflexivity]. unfold pv_call. rewrite H. reflexivity. Qed.

(* the plain meaning of a call site is a function of its callee and the bound values *)
Lemma pv_step_site : forall s g en, site_callee s = Some g ->
  pv_step s en = if site_runs s then pv_call en g (site_pv s en) else inr en.
Proof. intros [l e g0 a|l g0 [|]|g0|l e p g0 pos kw|p] g en Hg; try discriminate Hg; injection Hg as <-; reflexivity. Qed.

Section TheoremA.
  Variable hv : pyval -> hres.
  Variable hl : list bytes -> hres.
  Variable UVal : pyval -> Prop.
  Variable U : fn -> Prop.
  Variable RootOK : fn -> list (bytes * option bytes) -> list rv -> Prop.
  Hypothesis HU : univ_ok hv hl UVal U RootOK.

  Local Notation ConsU := (Cons hv hl RootOK).

  Lemma clines_ok : forall {ls h}, clines hl ls = inr h -> hl ls = HOk h.
  Proof. intros ls h H. unfold clines in H. destruct (hl ls); try discriminate H. injection H as H. subst. reflexivity. Qed.

  Lemma cvars_cons : forall n v r vs, cvars hv ((n, v) :: r) = inr vs ->
    exists h l, hv v = HOk h /\ cvars hv r = inr l /\ vs = (n, h) :: l.
  Proof.
    intros n v r vs H. cbn [cvars] in H. destruct (hv v) as [h| | | | |]; try discriminate H.
    destruct (cvars hv r) as [e|l]; [discriminate H|]. injection H as <-. exists h, l. auto.
  Qed.

  Lemma cvars_values : forall {vars vars' vs},
    cvars hv vars = inr vs -> cvars hv vars' = inr vs ->
    Forall (fun nv => UVal (snd nv)) vars -> Forall (fun nv => UVal (snd nv)) vars' ->
    map snd vars = map snd vars'.
  Proof.
    induction vars as [|[n v] r IH]; intros [|[n' v'] r'] vs H1 H2 F1 F2; [reflexivity| | |].
    - apply cvars_cons in H2 as (h & l & _ & _ & ->). discriminate H1.
    - apply cvars_cons in H1 as (h & l & _ & _ & ->). discriminate H2.
    - apply cvars_cons in H1 as (h & l & Ev & Er & ->). apply cvars_cons in H2 as (h' & l' & Ev' & Er' & E).
      injection E as <- <- <-. inversion F1 as [|? ? Fv Fr]; subst. inversion F2 as [|? ? Fv' Fr']; subst.
      cbn [map snd]. f_equal; [exact (u_hv_inj _ _ _ _ _ HU v v' h Fv Fv' Ev Ev')|exact (IH r' l Er Er' Fr Fr')].
  Qed.

  Lemma pv_steps_app : forall l1 l2 en,
    pv_steps (steps_of (l1 ++ l2)) en =
    match pv_steps (steps_of l1) en with inl o => inl o | inr en' => pv_steps (steps_of l2) en' end.
  Proof.
    induction l1 as [|s r IH]; intros l2 en; [reflexivity|].
    cbn [app steps_of]. rewrite !pv_steps_cons. destruct (pv_step s en) as [o|en']; [reflexivity|apply IH].
  Qed.

  Lemma cana_lines : forall {g A R lh a l ch e v R1},
    cana hv hl g A R = inr (Content lh a l ch e v, R1) -> hl (fn_lines g) = HOk lh.
  Proof.
    intros [name tag raises lines params annot is_class bds] A R lh a l ch e v R1 Hc. rewrite cana_eq in Hc.
    apply clines_ok. cbn [fn_lines]. destruct is_class.
    - destruct (cana_bodies hv hl bds lines A R) as [e0|[ms R']]; [discriminate Hc|].
      destruct (clines hl lines) as [e0|lh0]; [discriminate Hc|]. injection Hc as <- _ _ _ _ _ _. reflexivity.
    - destruct bds as [|[vars exts sts] r]; [discriminate Hc|].
      destruct (cana_body hv hl _ lines A R) as [e0|[c1 Ra]] eqn:Eb; [discriminate Hc|]. injection Hc as -> _.
      destruct (cana_body_inv Eb) as (a0 & vs & ch0 & loads & lh0 & _ & _ & _ & El & E). injection E as <- _ _ _ _ _. exact El.
  Qed.

  Lemma same_content_same_lines : forall {g g' A A' R R' c R1 R1'}, U g -> U g' ->
    cana hv hl g A R = inr (c, R1) -> cana hv hl g' A' R' = inr (c, R1') -> fn_lines g = fn_lines g'.
  Proof.
    intros g g' A A' R R' [lh a l ch e v] R1 R1' Ug Ug' H1 H2.
    rewrite <- (firstn_all (fn_lines g)), <- (firstn_all (fn_lines g')).
    apply (u_hl_inj _ _ _ _ _ HU g g' _ _ lh Ug Ug'); rewrite firstn_all; [exact (cana_lines H1)|exact (cana_lines H2)].
  Qed.

  Lemma same_content_skel : forall {g g' A A' R R' c R1 R1'}, U g -> U g' ->
    cana hv hl g A R = inr (c, R1) -> cana hv hl g' A' R' = inr (c, R1') -> skel g = skel g'.
  Proof.
    intros g g' A A' R R' c R1 R1' Ug Ug' H1 H2.
    exact (u_text _ _ _ _ _ HU _ _ Ug Ug' (same_content_same_lines Ug Ug' H1 H2)).
  Qed.

  Lemma body_ok : forall {f b}, U f -> first_body f = Some b -> wf_body UVal b /\ Forall U (callees_l (body_steps b)).
  Proof.
    intros f b Uf Hb. split.
    - destruct (u_wf _ _ _ _ _ HU f Uf) as (_ & _ & Hw). rewrite Hb in Hw. exact Hw.
    - rewrite <- (callees_first _ _ Hb). apply Forall_forall. intros g. exact (u_closed _ _ _ _ _ HU f g Uf).
  Qed.

  (* two analysed nodes of the universe with the same content: neither has an executed body, or both have, with the
     same skeleton, the same argument content, external names and variable hashes, analysed to the same children and
     loads *)
  Lemma same_content_bodies : forall {g g' A A' R R' c R1 R1'}, U g -> U g' ->
    cana hv hl g A R = inr (c, R1) -> cana hv hl g' A' R' = inr (c, R1') ->
    first_body g = None /\ first_body g' = None \/
    exists vars vars' exts sts sts' a vs ch loads lh Ra Ra',
      first_body g = Some (Body vars exts sts) /\ first_body g' = Some (Body vars' exts sts') /\
      skel_lsteps [] (list_of_steps sts) = skel_lsteps [] (list_of_steps sts') /\
      cargs A = inr a /\ cargs A' = inr a /\ cvars hv vars = inr vs /\ cvars hv vars' = inr vs /\
      cana_steps hv hl sts (fn_lines g) a exts vs ([], [], R) = inr (ch, loads, Ra) /\
      cana_steps hv hl sts' (fn_lines g') a exts vs ([], [], R') = inr (ch, loads, Ra') /\
      body_content (fn_is_class g) c = Some (Content lh a loads ch exts vs).
  Proof.
    intros g g' A A' R R' c R1 R1' Ug Ug' Hc Hc'.
    pose proof (same_content_skel Ug Ug' Hc Hc') as Hsk. injection Hsk as _ _ _ Ecl _ Esk. unfold first_steps in Esk.
    destruct (first_body g) as [[vars exts sts]|] eqn:Eb, (first_body g') as [[vars' exts' sts']|] eqn:Eb';
      try discriminate Esk; [right|left; split; reflexivity].
    injection Esk as Esk.
    destruct (cana_fn_steps Hc Eb) as (a & vs & ch & loads & lh & Ra & Ha & Ev & Es & Ec & _).
    destruct (cana_fn_steps Hc' Eb') as (a' & vs' & ch' & loads' & lh' & Ra' & Ha' & Ev' & Es' & Ec' & _).
    rewrite <- Ecl, Ec in Ec'. injection Ec' as <- <- <- <- <- <-.
    exists vars, vars', exts, sts, sts', a, vs, ch, loads, lh, Ra, Ra'. auto 12.
  Qed.

  Definition same_fn (g g' : fn) : Prop := fn_params g = fn_params g' /\ forall pv, pv_fn g pv = pv_fn g' pv.

  Definition A1_fn (g : fn) : Prop := forall g' A A' R R' c R1 R1', U g' ->
    cana hv hl g A R = inr (c, R1) -> cana hv hl g' A' R' = inr (c, R1') -> same_fn g g'.

  (* the by-name mentions so far on the two sides mean the same when applied *)
  Definition same_refs : list (option fn) -> list (option fn) -> Prop :=
    Forall2 (fun og og' => match og, og' with Some g, Some g' => same_fn g g' | None, None => True | _, _ => False end).

  Lemma same_refs_site : forall cs cs' s s' g g', skel_step cs s = skel_step cs' s' ->
    site_callee s = Some g -> site_callee s' = Some g' -> same_fn g g' -> same_refs (acallee s) (acallee s').
  Proof.
    intros cs cs' s s' g g' Hsk Hg Hg' Hgg. destruct s; try discriminate Hg; destruct s'; try discriminate Hsk;
      injection Hg as <-; injection Hg' as <-; (constructor; [first [exact I|exact Hgg]|constructor]).
  Qed.

  (* two step lists with the same skeleton, analysed from the same children to the same children *)
  Lemma A1_steps : forall {lines lines' a a' exts exts' vs vs' ch1 l1 l1' R1 R1'} l l' {cs cs' ch l0 l0' R0 R0'},
    Forall U (callees_l l) -> Forall (fun g => U g -> A1_fn g) (callees_l l) -> Forall U (callees_l l') ->
    wf_lsteps UVal cs l -> wf_lsteps UVal cs' l' -> skel_lsteps cs l = skel_lsteps cs' l' ->
    cana_steps hv hl (steps_of l) lines a exts vs (ch, l0, R0) = inr (ch1, l1, R1) ->
    cana_steps hv hl (steps_of l') lines' a' exts' vs' (ch, l0', R0') = inr (ch1, l1', R1') -> same_refs cs cs' ->
    forall en, pv_steps (steps_of l) en = pv_steps (steps_of l') en.
  Proof.
    intros lines lines' a a' exts exts' vs vs' ch1 l1 l1' R1 R1'.
    induction l as [|s r IH]; intros [|s' r'] cs cs' ch l0 l0' R0 R0' Hcl HA Hcl' Hw Hw' Hsk H1 H2 L en;
      try discriminate Hsk; [reflexivity|].
    cbn [skel_lsteps wf_lsteps steps_of] in *. injection Hsk as Hsk1 Hsk2.
    destruct Hw as [Hws Hwr], Hw' as [Hws' Hwr'].
    unfold callees_l in Hcl, HA, Hcl'. cbn [flat_map] in Hcl, HA, Hcl'.
    apply Forall_app in Hcl as [Hcs Hcr]. apply Forall_app in HA as [HAs HAr]. apply Forall_app in Hcl' as [Hcs' Hcr'].
    destruct (cana_steps_cons_mid H1) as (lm & Rm & Em & H1r). destruct (cana_steps_cons_mid H2) as (lm' & Rm' & Em' & H2r).
    rewrite <- (skel_step_acallee_len _ _ _ _ Hsk1) in Em', H2r.
    assert (Hs : same_refs (acallee s) (acallee s') /\ pv_step s en = pv_step s' en).
    { destruct (site_callee s) as [g|] eqn:Hg.
      - (* a call site: the callees have the same content *)
        destruct (skel_step_site Hsk1 Hg) as (g' & Hg' & _ & Eruns).
        destruct (site_has_end Hg) as [k Hk]. destruct (site_has_end Hg') as [k' Hk'].
        destruct (cana_site Hg Hk Em) as (ph & named & c & Rc & _ & _ & Hc & E & _).
        destruct (cana_site Hg' Hk' Em') as (ph' & named' & c' & Rc' & _ & _ & Hc' & E' & _).
        rewrite E in E'. apply app_inv_head in E'. injection E' as <-.
        pose proof (proj1 (Forall_forall _ _) Hcs g (site_callee_in Hg)) as Ug.
        pose proof (proj1 (Forall_forall _ _) Hcs' g' (site_callee_in Hg')) as Ug'.
        pose proof (proj1 (Forall_forall _ _) HAs g (site_callee_in Hg) Ug g' _ _ _ _ c _ _ Ug' Hc Hc') as Hgg.
        split; [exact (same_refs_site _ _ _ _ _ _ Hsk1 Hg Hg' Hgg)|]. destruct Hgg as [Hp Hpv].
        rewrite (pv_step_site s g en Hg), (pv_step_site s' g' en Hg'), Eruns,
                (site_pv_skel en Hsk1 Hg Hg' Hp), (pv_call_agree g g' en _ Hpv). reflexivity.
      - destruct s as [| |g| |p]; try discriminate Hg; destruct s' as [| |g'| |p']; try discriminate Hsk1;
          (split; [constructor|]); [|reflexivity].
        injection Hsk1 as Hj. destruct Hws as (j & Fj & Nj), Hws' as (j' & Fj' & Nj').
        rewrite Fj, Fj' in Hj. injection Hj as <-.
        destruct (Forall2_nth _ _ _ _ _ _ _ _ L Nj Nj') as [Hp Hpv].
        rewrite !pv_step_view. cbn [step_view pv_view]. rewrite <- Hp, (pv_call_agree g g' en _ Hpv). reflexivity. }
    destruct Hs as [Ls Es]. rewrite !pv_steps_cons, Es. destruct (pv_step s' en) as [o|en1]; [reflexivity|].
    exact (IH r' _ _ _ _ _ _ _ Hcr HAr Hcr' Hwr Hwr' Hsk2 H1r H2r (Forall2_app L Ls) en1).
  Qed.

  Lemma A1_all : forall g, U g -> A1_fn g.
  Proof.
    induction g as [g IH] using fn_callees_ind. intros Ug g' A A' R R' c R1 R1' Ug' Hc Hc'.
    pose proof (same_content_skel Ug Ug' Hc Hc') as Hsk. injection Hsk as Etag Eraises Eparams _ _ _.
    split; [exact Eparams|]. intros pv. rewrite !pv_fn_first.
    destruct (same_content_bodies Ug Ug' Hc Hc')
      as [[-> ->]|(vars & vars' & exts & sts & sts' & a & vs & ch & loads & lh & Ra & Ra' & Eb & Eb' & Esteps & _ & _ & Ev & Ev' & Es & Es' & _)];
      [reflexivity|].
    rewrite Eb, Eb'. rewrite (callees_first _ _ Eb) in IH.
    destruct (body_ok Ug Eb) as [[Hv Hw] Hcl], (body_ok Ug' Eb') as [[Hv' Hw'] Hcl']. cbn [body_steps body_vars] in *.
    rewrite Etag, Eraises, !pv_body_eq, (cvars_values Ev Ev' Hv Hv').
    rewrite <- (steps_of_list sts) in Es |- *. rewrite <- (steps_of_list sts') in Es' |- *.
    rewrite (A1_steps _ _ Hcl IH Hcl' Hw Hw' Esteps Es Es' (Forall2_nil _)). reflexivity.
  Qed.

  Lemma A1_callees : forall l, Forall (fun g => U g -> A1_fn g) l.
  Proof. intros l. apply Forall_forall. intros g _. exact (A1_all g). Qed.

  (* A1: two analysed nodes of the universe with the same content have the same parameters and the same plain value
     on every tuple of parameter values *)
  Theorem body_determines_value : forall g g' A A' R R' c R1 R1', U g -> U g' ->
    cana hv hl g A R = inr (c, R1) -> cana hv hl g' A' R' = inr (c, R1') ->
    fn_params g = fn_params g' /\ forall pv, pv_fn g pv = pv_fn g' pv.
  Proof. intros g g' A A' R R' c R1 R1' Ug Ug'. exact (A1_all g Ug g' A A' R R' c R1 R1' Ug'). Qed.

  Lemma args_known_cons : forall n ho l, args_known ((n, ho) :: l) = true <-> ho <> None /\ args_known l = true.
  Proof.
    intros n ho l. unfold args_known. cbn [existsb snd]. destruct ho as [h|]; cbn [orb negb].
    - split; [intros H; split; [discriminate|exact H]|intros [_ H]; exact H].
    - split; [discriminate|intros [H _]; exfalso; apply H; reflexivity].
  Qed.

  Lemma kmatch_known : forall {named pv}, kmatch hv UVal named pv -> args_known named = true.
  Proof.
    intros named pv H. induction H as [|[n ho] v l pl Hx _ IH]; [reflexivity|].
    apply args_known_cons. split; [|exact IH]. destruct Hx as (h & w & E & _). cbn [snd] in E. rewrite E. discriminate.
  Qed.

  Lemma kmatch_inj : forall {named pv pv'}, kmatch hv UVal named pv -> kmatch hv UVal named pv' -> pv = pv'.
  Proof.
    intros named pv pv' H. revert pv'. induction H as [|nh v l pl Hx _ IH]; intros pv' H'.
    - inversion H'. reflexivity.
    - inversion H' as [|? v' ? pl' Hx' Hr']; subst. f_equal; [|apply IH; exact Hr'].
      destruct Hx as (h & w & E & Hh & Uw & Ev). destruct Hx' as (h' & w' & E' & Hh' & Uw' & Ev').
      rewrite E in E'. injection E' as E'. subst h' v v'.
      rewrite (u_hv_inj _ _ _ _ _ HU w w' h Uw Uw' Hh Hh'). reflexivity.
  Qed.

  Lemma known_args_all : forall named, args_known named = true ->
    named = map (fun nh => (fst nh, Some (snd nh))) (known_args named).
  Proof.
    induction named as [|[n [h|]] r IH]; intros K; [reflexivity| |discriminate K].
    unfold known_args. cbn [flat_map snd fst app map]. f_equal. exact (IH K).
  Qed.

  Lemma known_args_inj : forall named named', args_known named = true -> args_known named' = true ->
    known_args named = known_args named' -> named = named'.
  Proof. intros named named' K K' E. rewrite (known_args_all _ K), (known_args_all _ K'), E. reflexivity. Qed.

  Lemma cargs_known : forall named site, args_known named = true -> cargs (named, site) = inr (ArgsKnown (known_args named)).
  Proof.
    intros named site K. unfold args_known in K. apply negb_true_iff in K. unfold cargs. rewrite K. reflexivity.
  Qed.
  Lemma cargs_unknown : forall named site, args_known named = false ->
    cargs (named, site) = match site with None => inl ErrAssertCtx | Some c => inr (ArgsFromContext c) end.
  Proof.
    intros named site K. unfold args_known in K. apply negb_false_iff in K. unfold cargs. rewrite K. reflexivity.
  Qed.

  Lemma cargs_same_known : forall {named named' site site' a}, args_known named = true ->
    cargs (named, site) = inr a -> cargs (named', site') = inr a -> named' = named.
  Proof.
    intros named named' site site' a K Ha Ha'. rewrite (cargs_known _ _ K) in Ha. injection Ha as <-.
    destruct (args_known named') eqn:K'.
    - rewrite (cargs_known _ _ K') in Ha'. injection Ha' as Ha'. exact (known_args_inj _ _ K' K Ha').
    - rewrite (cargs_unknown _ _ K') in Ha'. destruct site'; discriminate Ha'.
  Qed.

  Lemma cargs_same_unknown : forall {named named' c site' a}, args_known named = false ->
    cargs (named, Some c) = inr a -> cargs (named', site') = inr a -> a = ArgsFromContext c /\ site' = Some c.
  Proof.
    intros named named' c site' a K Ha Ha'. rewrite (cargs_unknown _ _ K) in Ha. injection Ha as <-.
    unfold cargs in Ha'. destruct (existsb _ named'), site' as [c'|]; try discriminate Ha'. injection Ha' as ->. auto.
  Qed.

  Lemma kw_lookup_In : forall (A : Type) n (kw : list (bytes * A)) v, kw_lookup n kw = Some v -> exists k, In (k, v) kw.
  Proof.
    intros A n. induction kw as [|[k x] r IH]; intros v H; [discriminate H|].
    cbn [kw_lookup] in H. destruct (bytes_eqb n k).
    - injection H as H. subst. exists k. left. reflexivity.
    - destruct (IH v H) as [k0 Hk]. exists k0. right. exact Hk.
  Qed.

  Lemma hash_kentry : forall w x n ho, UVal w /\ unmark w = x -> shash_opt hv w = inr ho -> kentry hv UVal (n, ho) (RVal x).
  Proof.
    intros w x n ho [Uw <-] Hs. unfold shash_opt in Hs. destruct (hv w) as [h| | | | |] eqn:Eh; try discriminate Hs.
    injection Hs as <-. exists h, w. auto.
  Qed.

  Lemma slot_kentry : forall en e a n ho, arg_ok UVal (e, a) -> sprocess_arg hv a = inr ho -> ho <> None ->
    kentry hv UVal (n, ho) (eval_expr en e).
  Proof.
    intros en e [v|] n ho Hok Hs Hn; cbn [arg_ok snd fst] in Hok; cbn [sprocess_arg] in Hs.
    - destruct Hok as [-> Hv]. exact (hash_kentry _ _ _ _ Hv Hs).
    - injection Hs as <-. contradiction Hn. reflexivity.
  Qed.

  Lemma sarg_ctx_ast_cons : forall p r idx pos kw named, sarg_ctx_ast hv (p :: r) idx pos kw = inr named ->
    exists ho l, named = (p_name p, ho) :: l /\ sarg_ctx_ast hv r (S idx) pos kw = inr l /\
      match nth_error pos idx with
      | Some a => sprocess_arg hv a
      | None => match kw_lookup (p_name p) kw with
                | Some a => sprocess_arg hv a
                | None => match p_default p with Some d => shash_opt hv (subst_default d) | None => inr None end
                end
      end = inr ho.
  Proof.
    intros p r idx pos kw named H. cbn [sarg_ctx_ast] in H.
    destruct (p_kind p); try discriminate H;
      (destruct (match nth_error pos idx with Some _ => _ | None => _ end) as [e|ho]; [discriminate H|];
       destruct (sarg_ctx_ast hv r (S idx) pos kw) as [e|l]; [discriminate H|]; injection H as <-; exists ho, l; auto).
  Qed.

  Lemma bind_args_cons : forall p r idx pos kw pv, bind_args (p :: r) idx pos kw = Some pv ->
    exists v pl, pv = v :: pl /\ bind_args r (S idx) pos kw = Some pl /\
      match nth_error pos idx with
      | Some v => Some v
      | None => match kw_lookup (p_name p) kw with
                | Some v => Some v
                | None => match p_default p with Some d => Some (RVal d) | None => None end
                end
      end = Some v.
  Proof.
    intros p r idx pos kw pv H. cbn [bind_args] in H.
    destruct (match nth_error pos idx with Some _ => _ | None => _ end) as [v|]; [|discriminate H].
    destruct (bind_args r (S idx) pos kw) as [pl|]; [|discriminate H]. injection H as <-. exists v, pl. auto.
  Qed.

  (* dds.keep(p, g, pos..., kw...): the argument context and [bind_args] walk the parameters in parallel *)
  Lemma keep_kmatch : forall en (pos : list (expr * aarg)) (kw : list (bytes * (expr * aarg))) ps idx named pv,
    params_ok UVal ps -> Forall (arg_ok UVal) pos -> Forall (fun nk => arg_ok UVal (snd nk)) kw ->
    sarg_ctx_ast hv ps idx (map snd pos) (map (fun nk => (fst nk, snd (snd nk))) kw) = inr named ->
    bind_args ps idx (map (fun ea => eval_expr en (fst ea)) pos)
              (map (fun nk => (fst nk, eval_expr en (fst (snd nk)))) kw) = Some pv ->
    args_known named = true -> kmatch hv UVal named pv.
  Proof.
    intros en pos kw. induction ps as [|p r IH]; intros idx named pv Hps Hpos Hkw Hs Hb K.
    - injection Hs as <-. injection Hb as <-. constructor.
    - inversion Hps as [|? ? Hp Hr]; subst.
      apply sarg_ctx_ast_cons in Hs as (ho & l & -> & Hrest & Hslot). apply bind_args_cons in Hb as (v & pl & -> & Eb & Hv).
      apply args_known_cons in K as [Hn K]. constructor; [|exact (IH (S idx) l pl Hr Hpos Hkw Hrest Eb K)].
      rewrite nth_error_map in Hslot, Hv.
      rewrite (kw_lookup_map _ _ (fun ea : expr * aarg => snd ea)) in Hslot.
      rewrite (kw_lookup_map _ _ (fun ea : expr * aarg => eval_expr en (fst ea))) in Hv.
      destruct (nth_error pos idx) as [[e a]|] eqn:En; cbn [option_map snd fst] in Hslot, Hv.
      + injection Hv as <-. apply (slot_kentry en e a _ _ (proj1 (Forall_forall _ _) Hpos _ (nth_error_In _ _ En)) Hslot Hn).
      + destruct (kw_lookup (p_name p) kw) as [[e a]|] eqn:Ek; cbn [option_map snd fst] in Hslot, Hv.
        * injection Hv as <-. destruct (kw_lookup_In _ _ _ _ Ek) as [k0 Hk0].
          exact (slot_kentry en e a _ _ (proj1 (Forall_forall _ _) Hkw _ Hk0) Hslot Hn).
        * destruct (p_default p) as [d|]; [|discriminate Hv]. injection Hv as <-. exact (hash_kentry _ _ _ _ Hp Hslot).
  Qed.

  Lemma nth_error_nil_none : forall (A : Type) i, @nth_error A [] i = None.
  Proof. intros A [|i]; reflexivity. Qed.

  (* [unbind n l] makes the first n entries of l unknown: if every entry is known afterwards, none has been touched *)
  Lemma unbind_known : forall n l, args_known (unbind n l) = true -> unbind n l = l /\ (n = 0 \/ l = []).
  Proof.
    intros [|n] [|[k h] r] K; try (split; [reflexivity|auto]).
    exfalso. cbn [unbind] in K. apply args_known_cons in K. destruct K as [K _]. apply K. reflexivity.
  Qed.

  (* g(e...): the analysis does not look at the arguments; the parameters they bind are unknown (fix F30), so when
     every argument is known there is no explicit argument (or no parameter) *)
  Lemma call_kmatch : forall en g args named pv,
    params_ok UVal (fn_params g) ->
    scallee_ctx_plain hv g (List.length args) = inr named ->
    bind_args (fn_params g) 0 (map (eval_expr en) args) [] = Some pv ->
    args_known named = true -> kmatch hv UVal named pv.
  Proof.
    intros en g args named pv Hps Hs Hb K. unfold scallee_ctx_plain in Hs.
    destruct (sarg_ctx_ast hv (fn_params g) 0 [] []) as [e|named0] eqn:E0; [discriminate Hs|].
    injection Hs as <-. destruct (unbind_known _ _ K) as [Eu [Hn| ->]]; rewrite Eu in *.
    - destruct args; [|discriminate Hn]. exact (keep_kmatch en [] [] _ 0 named0 pv Hps (Forall_nil _) (Forall_nil _) E0 Hb K).
    - destruct (fn_params g) as [|p r]; [injection Hb as <-; constructor|].
      apply sarg_ctx_ast_cons in E0 as (ho & l & E & _). discriminate E.
  Qed.

  Lemma site_kmatch : forall cs s g en named pv,
    wf_step UVal cs s -> site_callee s = Some g -> params_ok UVal (fn_params g) ->
    site_named hv s = inr named -> site_pv s en = Some pv -> args_known named = true ->
    kmatch hv UVal named pv.
  Proof.
    intros cs s g en named pv Hw Hg Hps Hn Hpv K.
    destruct s as [line eline g0 args|line g0 ex|g0|line eline p g0 pos kw|p]; cbn in Hg; try discriminate Hg;
      injection Hg as ->; cbn [site_named site_pv wf_step] in *.
    - exact (call_kmatch en g args named pv Hps Hn Hpv K).
    - exact (call_kmatch en g [] named pv Hps Hn Hpv K).
    - exact (keep_kmatch en pos kw _ 0 named pv Hps (proj1 Hw) (proj2 Hw) Hn Hpv K).
  Qed.

  Lemma site_ok : forall {f vars exts sts pre s post},
    U f -> first_body f = Some (Body vars exts sts) -> list_of_steps sts = pre ++ s :: post ->
    first_steps f = Some (pre ++ s :: post) /\ Forall (fun nv => UVal (snd nv)) vars /\
    (wf_lsteps UVal [] pre /\ Forall U (callees_l pre)) /\ wf_step UVal (cs_of pre) s /\ Forall U (step_callee s).
  Proof.
    intros f vars exts sts pre s post Uf Hb Hl. destruct (body_ok Uf Hb) as [[Hv Hw] Hcl].
    cbn [body_steps] in Hw, Hcl. rewrite Hl in Hw, Hcl.
    apply wf_lsteps_app in Hw as [Hwp [Hws _]]. rewrite callees_l_app in Hcl. apply Forall_app in Hcl as [Hcp Hcs].
    change (callees_l (s :: post)) with (step_callee s ++ callees_l post) in Hcs. apply Forall_app in Hcs as [Hcs _].
    rewrite (first_steps_of Hb), Hl. auto 6.
  Qed.

  Lemma Cons_U : forall {g A pv}, ConsU g A pv -> U g.
  Proof.
    intros g A pv H. induction H as [f named pv Hr|f Af pvf vars exts sts af vs Rf pre s post ch loads R1 en g k ph named pv
                                       Hf IH Hfb Hl _ _ _ _ Hg _ _ _ _].
    - exact (proj1 (u_root _ _ _ _ _ HU _ _ _ Hr)).
    - destruct (site_ok IH Hfb Hl) as (_ & _ & _ & _ & Hcs).
      exact (proj1 (Forall_forall _ _) Hcs g (site_callee_in Hg)).
  Qed.

  Lemma Cons_kmatch : forall g named site pv, ConsU g (named, site) pv -> args_known named = true ->
    kmatch hv UVal named pv.
  Proof.
    intros g named site pv H K. inversion H as [f nm p0 Hr|f Af pvf vars exts sts af vs Rf pre s post ch loads R1 en g0 k ph nm p0
                                                  Hf Hfb Hl _ _ _ _ Hg _ _ Hn Hpv]; subst.
    - exact (proj2 (u_root _ _ _ _ _ HU _ _ _ Hr)).
    - destruct (site_ok (Cons_U Hf) Hfb Hl) as (_ & _ & _ & Hws & _).
      exact (site_kmatch _ s g en named pv Hws Hg (proj1 (u_wf _ _ _ _ _ HU g (Cons_U H))) Hn Hpv K).
  Qed.

  Lemma args_determined_known : forall g g' named named' site site' pv pv' a,
    ConsU g (named, site) pv -> ConsU g' (named', site') pv' -> args_known named = true ->
    cargs (named, site) = inr a -> cargs (named', site') = inr a -> pv = pv'.
  Proof.
    intros g g' named named' site site' pv pv' a H H' K Ha Ha'.
    pose proof (cargs_same_known K Ha Ha') as ->.
    exact (kmatch_inj (Cons_kmatch _ _ _ _ H K) (Cons_kmatch _ _ _ _ H' K)).
  Qed.

  (* two call sites with the same context - the same source prefix, the same rank among the analysed interactions: the
     callers have the same parameters, and the same skeleton up to the call *)
  Lemma site_skel : forall c c' {pre pre' s s' post post' k k' ph ch l l' R R'},
    U (cl_fn c) -> U (cl_fn c') -> caller_wf hv c -> caller_wf hv c' ->
    analysed_to hv hl c pre (ch, l, R) -> analysed_to hv hl c' pre' (ch, l', R') ->
    list_of_steps (cl_sts c) = pre ++ s :: post -> list_of_steps (cl_sts c') = pre' ++ s' :: post' ->
    site_end s = Some k -> site_end s' = Some k' ->
    clines hl (firstn k (fn_lines (cl_fn c))) = inr ph -> clines hl (firstn k' (fn_lines (cl_fn c'))) = inr ph ->
    fn_params (cl_fn c) = fn_params (cl_fn c') /\ skel_lsteps [] pre = skel_lsteps [] pre' /\
    skel_step (cs_of pre) s = skel_step (cs_of pre') s'.
  Proof.
    intros c c' pre pre' s s' post post' k k' ph ch l l' R R' Uf Uf' (Hb & _) (Hb' & _) Hca Hca' Hl Hl' Hk Hk' Hph Hph'.
    destruct (cana_steps_ext Hca) as (n1 & En1 & Ln1).
    destruct (cana_steps_ext Hca') as (n1' & En1' & Ln1').
    cbn [app] in En1, En1'. subst n1 n1'. rewrite list_of_steps_of in Ln1, Ln1'.
    pose proof (first_steps_of Hb) as Hfs. rewrite Hl in Hfs.
    pose proof (first_steps_of Hb') as Hfs'. rewrite Hl' in Hfs'.
    destruct (u_prefix _ _ _ _ _ HU _ _ pre s post pre' s' post' k k' Uf Uf' Hfs Hfs' Hk Hk'
                (u_hl_inj _ _ _ _ _ HU _ _ k k' ph Uf Uf' (clines_ok Hph) (clines_ok Hph'))
                (eq_trans (eq_sym Ln1) Ln1')) as [Hpf Hsk].
    split; [exact Hpf|exact (skel_lsteps_snoc [] _ _ _ _ Hsk)].
  Qed.

  (* A2: consistent argument contexts with the same argument content bind the same parameter values *)
  Theorem args_determined : forall g A pv, ConsU g A pv -> forall g' A' pv' a, ConsU g' A' pv' ->
    cargs A = inr a -> cargs A' = inr a -> fn_params g = fn_params g' -> pv = pv'.
  Proof.
    intros g A pv H. pose proof H as H0.
    induction H as [f named pv Hr|f Af pvf vars exts sts af vs Rf pre s post ch loads R1 en g k ph named pv
                      Hf IH Hfb Hl Haf Hvs Hca Hpv Hg Hk Hph Hn Hspv]; intros g' [named' site'] pv' a H' Ha Ha' Hp.
    - exact (args_determined_known _ _ _ _ _ _ _ _ a H0 H' (kmatch_known (proj2 (u_root _ _ _ _ _ HU _ _ _ Hr))) Ha Ha').
    - destruct (args_known named) eqn:K; [exact (args_determined_known _ _ _ _ _ _ _ _ a H0 H' K Ha Ha')|].
      destruct (cargs_same_unknown K Ha Ha') as [-> ->].
      inversion H' as [|f' Af' pvf' vars' exts' sts' af' vs' Rf' pre' s' post' ch' loads' R1' en' g0 k' ph' nm p0
                         Hf' Hfb' Hl' Haf' Hvs' Hca' Hpv' Hg' Hk' Hph' Hn' Hspv' E1 E2 E3]; subst.
      pose proof (Cons_U Hf) as Uf. pose proof (Cons_U Hf') as Uf'.
      destruct (site_ok Uf Hfb Hl) as (_ & Hwv & [Hwp Hcp] & _).
      destruct (site_ok Uf' Hfb' Hl') as (_ & Hwv' & [Hwp' Hcp'] & _).
      destruct (site_skel (Caller f Af Rf pvf vars exts sts af vs) (Caller f' Af' Rf' pvf' vars' exts sts' af vs)
                          Uf Uf' (conj Hfb (conj Haf Hvs))
                          (conj Hfb' (conj Haf' Hvs')) Hca Hca' Hl Hl' Hk Hk' Hph Hph') as (Hpf & Hskp & Hsks).
      (* the callers received the same values (induction) and read the same variable values: they start in the same
         environment *)
      pose proof (IH Hf f' Af' pvf' af Hf' Haf Haf' Hpf) as <-.
      rewrite <- (cvars_values Hvs Hvs' Hwv Hwv') in Hpv'.
      (* the one idea of A2: the steps before the two calls have the same skeleton and are analysed from no children to
         the same children, so by A1 they are the same function of the environment: both callers reach the call in [en] *)
      assert (Epre : pv_steps (steps_of pre) (Env pvf (map snd vars) []) = pv_steps (steps_of pre') (Env pvf (map snd vars) []))
        by exact (A1_steps pre pre' Hcp (A1_callees _) Hcp' Hwp Hwp' Hskp Hca Hca' (Forall2_nil _) _).
      rewrite Epre, Hpv' in Hpv. injection Hpv as ->.
      (* the same argument expressions, evaluated in the same environment *)
      rewrite (site_pv_skel en Hsks Hg Hg' Hp), Hspv' in Hspv. injection Hspv as ->. reflexivity.
  Qed.

  (* the same content, and parameter values that agree whenever the argument content is the same *)
  Lemma content_value : forall g g' A A' pv pv' R R' c R1 R1', U g -> U g' ->
    cana hv hl g A R = inr (c, R1) -> cana hv hl g' A' R' = inr (c, R1') ->
    (fn_params g = fn_params g' -> forall a, cargs A = inr a -> cargs A' = inr a -> pv = pv') ->
    pv_fn g pv = pv_fn g' pv'.
  Proof.
    intros g g' A A' pv pv' R R' c R1 R1' Ug Ug' Hc Hc' Hpv'.
    destruct (A1_all g Ug g' A A' R R' c R1 R1' Ug' Hc Hc') as [Hp Hpv]. rewrite Hpv.
    destruct (same_content_bodies Ug Ug' Hc Hc') as [[_ E]|(_ & _ & _ & _ & _ & a & _ & _ & _ & _ & _ & _ & _ & _ & _ & Ha & Ha' & _)].
    - rewrite !pv_fn_first, E. reflexivity.
    - rewrite (Hpv' Hp a Ha Ha'). reflexivity.
  Qed.

  (* THEOREM A.  Two analysed nodes of the universe whose parameter values are consistent with their argument contexts
     and whose contents are equal have the same plain value (returned tuple, raised exception or error). *)
  Theorem content_determines_value : forall g g' A A' pv pv' R R' c R1 R1',
    ConsU g A pv -> ConsU g' A' pv' ->
    cana hv hl g A R = inr (c, R1) -> cana hv hl g' A' R' = inr (c, R1') ->
    pv_fn g pv = pv_fn g' pv'.
  Proof.
    intros g g' A A' pv pv' R R' c R1 R1' H H' Hc Hc'.
    apply (content_value g g' A A' pv pv' R R' c R1 R1' (Cons_U H) (Cons_U H') Hc Hc').
    intros Hp a Ha Ha'. exact (args_determined g A pv H g' A' pv' a H' Ha Ha' Hp).
  Qed.

  (* THEOREM A, fragment where every argument is known (literals, defaults, top-level values): no call-site context
     is involved; consistency is just [kmatch]. *)
  Theorem content_determines_value_known : forall g g' named named' site site' pv pv' R R' c R1 R1',
    U g -> U g' -> kmatch hv UVal named pv -> kmatch hv UVal named' pv' ->
    cana hv hl g (named, site) R = inr (c, R1) -> cana hv hl g' (named', site') R' = inr (c, R1') ->
    pv_fn g pv = pv_fn g' pv'.
  Proof.
    intros g g' named named' site site' pv pv' R R' c R1 R1' Ug Ug' K K' Hc Hc'.
    apply (content_value g g' _ _ pv pv' R R' c R1 R1' Ug Ug' Hc Hc'). intros _ a Ha Ha'.
    pose proof (cargs_same_known (kmatch_known K) Ha Ha') as ->. exact (kmatch_inj K K').
  Qed.
End TheoremA.
Arguments clines_ok {hl ls h}.
Arguments same_content_same_lines {hv hl UVal U RootOK} HU {g g' A A' R R' c R1 R1'}.
Arguments same_content_skel {hv hl UVal U RootOK} HU {g g' A A' R R' c R1 R1'}.
Arguments same_content_bodies {hv hl UVal U RootOK} HU {g g' A A' R R' c R1 R1'}.
Arguments body_ok {hv hl UVal U RootOK} HU {f b}.
Arguments site_ok {hv hl UVal U RootOK} HU {f vars exts sts pre s post}.
Arguments Cons_U {hv hl UVal U RootOK} HU {g A pv}.
Arguments kmatch_inj {hv hl UVal U RootOK} HU {named pv pv'}.
Arguments kmatch_known {hv UVal named pv}.
Arguments cvars_values {hv hl UVal U RootOK} HU {vars vars' vs}.
Arguments site_skel {hv hl UVal U RootOK} HU c c' {pre pre' s s' post post' k k' ph ch l l' R R'}.
