(* Soundness of signatures for programs WITH dds.load: the evaluation state machine.
   Over a universe with loads ([lbase_ok]) and injective rendering of its signature terms:
   - [DenN]: what a key denotes, by levels (a top-level call reads, through its fetched references, what the keys stored by
     EARLIER calls denote); [DenN_fun]: a key denotes one value (Theorem A with loads + injective rendering);
   - [W_all]: memoised execution inside an evaluation returns the plain outcome WITH loads ([pvl_fn]), keeps the store
     sound, and keeps the invariant [J] (every resolved reference of the analysis is what a load reads at run time);
   - [call_loads], [history_loads]: top-level calls and histories from the empty store, no no_loads_fn premise;
   - C09 corollaries, regression theorems of the findings F33 / F34 (repaired), example.
   Builds on SoundnessLoadA.v (Theorem A with loads) and on Soundness.v, from which it takes what Theorem B says about
   requested paths and top-level calls without reference to loads: [resolves], [coherent], [styled], [analysis_invL],
   [sana_path_wf], [in_universe], and the digest function [sx_H] of its example; the closing example uses the checks of
   ClosedUniverse.v.  Used by Properties/C09c.v. *)
From Coq Require Import List Ascii String ZArith NArith Bool Lia.
From DDS Require Import Base.Bytes Base.BytesFacts Extracted.ConstHash L0_Hash.PyVal L0_Hash.DdsHash L1_Args.ArgCtx
     L3_Sig.Program L3_Sig.Sig L3_Sig.SigProofs L3_Sig.SigTree L3_Sig.SigTreeProofs
     L4_Eval.Stages L4_Eval.Overlap L4_Eval.DdsEval L4_Eval.EvalSpec L4_Eval.EvalProofs
     L4_Eval.SoundnessDefs L4_Eval.SoundnessSite L4_Eval.SoundnessA L4_Eval.Soundness L4_Eval.SoundnessLoadA
     L4_Eval.ClosedUniverse.
Import ListNotations.

(* kept nodes are flat: nothing is kept below a kept node (so that a node served from the store hides no path; the
   general case needs a closure invariant of the store: see "what remains" in Properties/C09c.v) *)
Definition kwf_step (s : step) : Prop :=
  match s with
  | SKeep _ _ _ g _ _ => reg_fn g = []
  | SCall _ _ g _ | SRef _ g true => match fn_annot g with Some _ => reg_bodies (fn_bodies g) = [] | None => True end
  | _ => True
  end.
Definition kwf_fn (f : fn) : Prop :=
  match first_body f with Some b => Forall kwf_step (body_steps b) | None => True end.

Lemma kwf_site : forall s g q, kwf_step s -> site_callee s = Some g -> site_runs s = true -> site_kpath s g = Some q ->
  forall p, In p (reg_fn g) -> p = q.
Proof.
  intros [l e g0 a|l g0 [|]|g0|l e p0 g0 pos kw|p0] g q Hk Hg Hr Hq p Hp; try discriminate Hg; try discriminate Hr;
    injection Hg as <-; cbn in Hk, Hq.
  1,2: rewrite Hq in Hk; rewrite reg_fn_eq, Hq, Hk in Hp; destruct Hp as [<-|[]]; reflexivity.
  rewrite Hk in Hp. destruct Hp.
Qed.

Section LoadB.
  Variable H : bytes -> bytes.
  Variable mx : option N.
  Variable UVal : pyval -> Prop.
  Variable U : fn -> Prop.
  Variable RootCall : fn -> style -> list pyval -> list (bytes * pyval) -> Prop.

  Local Notation hv := (hv0 H mx).
  Local Notation hl := (hl0 H mx).
  Local Notation rd := (render H).
  Local Notation rs := (render_sfi H).
  Local Notation bind_top f pos kw :=
    (bind_args (fn_params f) 0 (map RVal pos) (map (fun nv : bytes * pyval => (fst nv, RVal (snd nv))) kw)).

  Definition ExtOf (D : bytes -> rv -> Prop) (sg : dg) (v : rv) : Prop := exists key, sg = DBytes key /\ D key v.
  (* a top-level call of the universe whose fetched references are served (by what the keys of the store denote: D) *)
  Definition RootLm (D : bytes -> rv -> Prop) (f : fn) (named : list (bytes * option bytes)) (R0 : sresolved)
             (pv : list rv) (k0 : kenv) : Prop :=
    exists sty pos kw, RootCall f sty pos kw /\ arg_ctx_rt H mx (fn_params f) 0 pos kw = inr named /\
                       bind_top f pos kw = Some pv /\
                       (forall p sg, srlookup p R0 = Some sg -> exists v, k0 p = Some v /\ ExtOf D sg v) /\
                       (* only references that the pre-pass of some configuration asks the store for *)
                       exists c, forall p sg, srlookup p R0 = Some sg -> In p (loads_to_check c f).
  Definition NodeDen (D : bytes -> rv -> Prop) (k : bytes) (v : rv) : Prop :=
    exists g A R pv kk x R1, LCons hv hl (RootLm D) g A R pv kk /\ sana hv hl g (skey A) R = inr (x, R1) /\
                             rd (sfi_sig x) = k /\ fst (pvl_fn g pv kk) = Ret v.
  Fixpoint DenN (n : nat) : bytes -> rv -> Prop :=
    match n with
    | O => fun _ _ => False
    | S m => fun k v => DenN m k v \/ NodeDen (DenN m) k v
    end.
  Definition Den (k : bytes) (v : rv) : Prop := exists n, DenN n k v.

  Definition node_sigL (m : nat) (t : dg) : Prop :=
    exists g A R pv kk x R1, LCons hv hl (RootLm (DenN m)) g A R pv kk /\ sana hv hl g (skey A) R = inr (x, R1) /\ t = sfi_sig x.

  (* a kept function: the callee of a dds.keep of the universe, or a data function *)
  Definition KeptFn (g : fn) : Prop :=
    fn_annot g <> None \/
    exists f l e p pos kw, U f /\ first_steps f <> None /\
                           match first_steps f with Some sts => In (SKeep l e p g pos kw) sts | None => False end.

  Record lbase_ok : Prop := {
    b_closed : forall f g, U f -> In g (callees f) -> U g;
    b_wf : forall f, U f -> wf_fn UVal f;
    b_text : forall f f', U f -> U f' -> fn_lines f = fn_lines f' -> skel f = skel f';
    b_prefix : forall f f' pre s post pre' s' post' k k',
        U f -> U f' ->
        first_steps f = Some (pre ++ s :: post) -> first_steps f' = Some (pre' ++ s' :: post') ->
        site_end s = Some k -> site_end s' = Some k' ->
        firstn k (fn_lines f) = firstn k' (fn_lines f') ->
        List.length (cs_of pre) = List.length (cs_of pre') ->
        fn_params f = fn_params f' /\ skel_lsteps [] (pre ++ [s]) = skel_lsteps [] (pre' ++ [s']);
    b_hl_inj : forall f f' n n' h, U f -> U f' ->
        hl (firstn n (fn_lines f)) = HOk h -> hl (firstn n' (fn_lines f')) = HOk h ->
        firstn n (fn_lines f) = firstn n' (fn_lines f');
    b_hv_inj : forall v w h, UVal v -> UVal w -> hv v = HOk h -> hv w = HOk h -> v = w;
    (* loads: SoundnessLoadA.lwf_fn; kept nodes are flat *)
    b_lwf : forall f, U f -> lwf_fn f;
    b_kwf : forall f, U f -> kwf_fn f;
    (* top-level calls: functions of the universe, arguments known and readable, the root itself is not stored *)
    b_root : forall f sty pos kw, RootCall f sty pos kw ->
        U f /\ root_path f sty = None /\
        forall named, arg_ctx_rt H mx (fn_params f) 0 pos kw = inr named ->
                      exists pv, bind_top f pos kw = Some pv /\ kmatch hv UVal named pv;
    (* a function called at top level is not (textually) a kept function of the universe: its signature is no store key *)
    b_root_text : forall f sty pos kw g, RootCall f sty pos kw -> U g -> KeptFn g -> fn_lines f <> fn_lines g;
    (* the cryptographic idealisation *)
    b_inj : forall m t t', node_sigL m t -> node_sigL m t' -> rd t = rd t' -> t = t';
    (* per evaluation (decidable on the result of the analysis): no path kept with two signatures (F12 / F26); a path
       whose reference is fetched from the store is not produced by the evaluation (true when the pre-pass looks at the
       whole tree, DdsEval.c_prepass_whole_tree; the pinned behaviour is finding F08 / F10b) *)
    b_coherent : forall f sty pos kw c s x sp, RootCall f sty pos kw ->
        analysis H mx c f sty pos kw s = inr (x, sp) -> coherent x = true;
    b_ext_disjoint : forall f sty pos kw c s x sp p, RootCall f sty pos kw ->
        analysis H mx c f sty pos kw s = inr (x, sp) -> In p (loads_to_check c f) -> blookup p sp = None
  }.

  Hypothesis HB : lbase_ok.

  Lemma univ_of_base : forall D : bytes -> rv -> Prop, univ_ok hv hl UVal U (RootOK_L (RootLm D)).
  Proof.
    intros D. constructor; try apply HB.
    intros f named pv (R0 & k0 & sty & pos & kw & Hr & Hn & Hb & _).
    destruct (b_root HB _ _ _ _ Hr) as (Uf & _ & Hk). split; [exact Uf|].
    destruct (Hk named Hn) as (pv' & Hb' & Hkm). rewrite Hb in Hb'. injection Hb' as <-. exact Hkm.
  Qed.

  Lemma luniv_of_base : forall D : bytes -> rv -> Prop, (forall k v v', D k v -> D k v' -> v = v') ->
    luniv_ok hv hl UVal U (RootLm D) (ExtOf D).
  Proof.
    intros D HD. constructor.
    - apply univ_of_base.
    - exact (b_lwf HB).
    - intros f named R0 pv k0 (sty & pos & kw & _ & _ & _ & Hr & _). exact Hr.
    - intros sg v v' (key & -> & Hd) (key' & E' & Hd'). injection E' as <-. exact (HD _ _ _ Hd Hd').
    - intros sg v (key & E & _). exists key. exact E.
  Qed.

  Lemma RootLm_mono : forall (D D' : bytes -> rv -> Prop), (forall k v, D k v -> D' k v) ->
    forall f named R0 pv k0, RootLm D f named R0 pv k0 -> RootLm D' f named R0 pv k0.
  Proof.
    intros D D' HD f named R0 pv k0 (sty & pos & kw & Hr & Hn & Hb & He & Hc). exists sty, pos, kw.
    repeat (split; [assumption|]). split; [|exact Hc].
    intros p sg Hp. destruct (He p sg Hp) as (v & Hv & key & E & Hd). exists v. split; [exact Hv|]. exists key. split; [exact E|apply HD; exact Hd].
  Qed.
  Lemma LCons_mono : forall (RL RL' : fn -> list (bytes * option bytes) -> sresolved -> list rv -> kenv -> Prop),
    (forall f named R0 pv k0, RL f named R0 pv k0 -> RL' f named R0 pv k0) ->
    forall g A R pv k, LCons hv hl RL g A R pv k -> LCons hv hl RL' g A R pv k.
  Proof.
    intros RL RL' HR g A R pv k HC.
    induction HC; [apply LRoot, HR; assumption|eapply LSite; eassumption].
  Qed.
  Lemma LCons_S : forall m g A R pv k, LCons hv hl (RootLm (DenN m)) g A R pv k -> LCons hv hl (RootLm (DenN (S m))) g A R pv k.
  Proof. intros m. apply LCons_mono. apply RootLm_mono. intros k v Hd. left. exact Hd. Qed.
  Lemma DenN_le : forall m m' k v, m <= m' -> DenN m k v -> DenN m' k v.
  Proof. intros m m' k v Hle. induction Hle as [|m' _ IH]; [auto|]. intros Hd. left. apply IH. exact Hd. Qed.

  Lemma DenN_node : forall m k v, DenN (S m) k v -> NodeDen (DenN m) k v.
  Proof.
    induction m as [|m IH]; intros k v [Hd|Hd]; try exact Hd; [destruct Hd|].
    destruct (IH k v Hd) as (g & A & R & pv & kk & x & R1 & HC & Hs). exists g, A, R, pv, kk, x, R1.
    split; [exact (LCons_S m _ _ _ _ _ HC)|exact Hs].
  Qed.

  Lemma same_key_content : forall m {g A R pv kk x R1 g' A' R' pv' kk' x' R1'},
    LCons hv hl (RootLm (DenN m)) g A R pv kk -> LCons hv hl (RootLm (DenN m)) g' A' R' pv' kk' ->
    sana hv hl g (skey A) R = inr (x, R1) -> sana hv hl g' (skey A') R' = inr (x', R1') ->
    rd (sfi_sig x) = rd (sfi_sig x') ->
    exists c, cana hv hl g A R = inr (c, R1) /\ cana hv hl g' A' R' = inr (c, R1').
  Proof.
    intros m g A R pv kk x R1 g' A' R' pv' kk' x' R1' HC HC' Hs Hs' Hk.
    apply (same_sig_content Hs Hs'). apply (b_inj HB m); [| |exact Hk].
    - exists g, A, R, pv, kk, x, R1. repeat split; assumption.
    - exists g', A', R', pv', kk', x', R1'. repeat split; assumption.
  Qed.

  Lemma DenN_fun_step : forall m, (forall k v v', DenN m k v -> DenN m k v' -> v = v') ->
    forall g A R pv kk x R1 v, LCons hv hl (RootLm (DenN m)) g A R pv kk -> sana hv hl g (skey A) R = inr (x, R1) ->
    DenN (S m) (rd (sfi_sig x)) v -> fst (pvl_fn g pv kk) = Ret v.
  Proof.
    intros m HF g A R pv kk x R1 v HC Hs Hd.
    destruct (DenN_node m _ _ Hd) as (g2 & A2 & R2 & pv2 & kk2 & x2 & R12 & HC2 & Hs2 & Hk2 & Hv2).
    destruct (same_key_content m HC HC2 Hs Hs2 (eq_sym Hk2)) as (c & Hc & Hc2). rewrite <- Hv2.
    exact (content_determines_value_loads hv hl UVal U (RootLm (DenN m)) (ExtOf (DenN m)) (luniv_of_base _ HF)
             g g2 A A2 R R2 pv pv2 kk kk2 c R1 R12 HC HC2 Hc Hc2).
  Qed.

  Theorem DenN_fun : forall m k v v', DenN m k v -> DenN m k v' -> v = v'.
  Proof.
    induction m as [|m IH]; intros k v v' Hd Hd'; [destruct Hd|].
    destruct (DenN_node m _ _ Hd) as (g & A & R & pv & kk & x & R1 & HC & Hs & <- & Hv).
    pose proof (DenN_fun_step m IH g A R pv kk x R1 v' HC Hs Hd') as E. rewrite Hv in E. injection E as E. exact E.
  Qed.

  Theorem Den_fun : forall k v v', Den k v -> Den k v' -> v = v'.
  Proof.
    intros k v v' [n Hn] [n' Hn']. apply (DenN_fun (Nat.max n n') k).
    - apply (DenN_le n); [apply Nat.le_max_l|exact Hn].
    - apply (DenN_le n'); [apply Nat.le_max_r|exact Hn'].
  Qed.

  Section WalkL.
    Variable m : nat.
    Variable sp : list (bytes * bytes).
    Local Notation RL := (RootLm (DenN m)).
    Local Notation LC := (LCons hv hl RL).
    Local Notation Dn := (DenN (S m)).
    Local Notation HLm := (luniv_of_base (DenN m) (DenN_fun m)).

    (* the key that a load of p reads in this evaluation *)
    Definition lkey (s : state) (p : bytes) : option bytes :=
      match blookup p sp with Some key => Some key | None => blookup p (s_paths s) end.
    (* every resolved reference of the analysis: the plain environment has a value at that path, a load reads the key that
       is the rendering of the reference, and the store holds that value under that key *)
    Definition J (s : state) (k : kenv) (R : sresolved) : Prop :=
      forall p sg, srlookup p R = Some sg ->
                   exists v, k p = Some v /\ lkey s p = Some (rd sg) /\ blookup (rd sg) (s_blobs s) = Some v.
    (* [KND key v]: v is the value of a consistent KEPT node with that key; [SOK]: every blob is such a value *)
    Definition KND (key : bytes) (v : rv) : Prop :=
      exists g A R pv kk x R1, LC g A R pv kk /\ sana hv hl g (skey A) R = inr (x, R1) /\
                               rd (sfi_sig x) = key /\ fst (pvl_fn g pv kk) = Ret v /\ KeptFn g.
    Definition SOK (s : state) : Prop := forall key v, blookup key (s_blobs s) = Some v -> KND key v.

    Local Notation kids_ok t := (forall y, In y (sfi_children t) -> resolves sp (rs y)).

    Lemma KND_Dn : forall {key v}, KND key v -> Dn key v.
    Proof. intros key v (g & A & R & pv & kk & x & R1 & HC & Hs & Hk & Hv & _). right. exists g, A, R, pv, kk, x, R1. repeat split; assumption. Qed.

    Lemma J_frame : forall {s k R R2}, (forall p, srlookup p R2 = srlookup p R) -> J s k R -> J s k R2.
    Proof. intros s k R R2 F HJ p sg Hl. rewrite F in Hl. exact (HJ p sg Hl). Qed.

    Lemma J_ext : forall {s s' k R}, J s k R -> ext s s' -> s_paths s' = s_paths s -> J s' k R.
    Proof.
      intros s s' k R HJ He Hp p sg Hl. destruct (HJ p sg Hl) as (w & Hw & Hk & Hb). exists w.
      split; [exact Hw|]. split; [unfold lkey in *; rewrite Hp; exact Hk|exact (He _ _ Hb)].
    Qed.

    (* the result of a memoised execution against the plain meaning: the same outcome, a sound store, and J when it
       succeeds *)
    Definition Wst (R1 : sresolved) (r : (outcome + env) * state) (r' : (outcome + env) * kenv) : Prop :=
      fst r = fst r' /\ SOK (snd r) /\ forall en1, fst r = inr en1 -> J (snd r) (snd r') R1.
    Lemma Wst_refl : forall {x s k R}, SOK s -> (forall en1, x = inr en1 -> J s k R) -> Wst R (x, s) (x, k).
    Proof. intros x s k R Hok HJ. split; [reflexivity|]. split; assumption. Qed.

    (* inside an evaluation the memoised load reads exactly the plain kept value, whenever the analysis resolved the path:
       this is what the invariant J says *)
    Theorem dds_load_reads_kept : forall s k R p sg en, J s k R -> srlookup p R = Some sg ->
      exists v, k p = Some v /\ exec_step (Dds sp) (SLoad p) en s = (inr (add_local en v), s).
    Proof.
      intros s k R p sg en HJ Hl. destruct (HJ p sg Hl) as (v & Hv & Hkey & Hb). exists v. split; [exact Hv|].
      rewrite exec_step_view. cbn [step_view exec_view]. unfold load_step. unfold lkey in Hkey.
      destruct (blookup p sp) as [key|]; [injection Hkey as ->|rewrite Hkey]; rewrite Hb; reflexivity.
    Qed.

    Definition W_fn (g : fn) : Prop := forall A R pv kk t R1 s,
      LC g A R pv kk -> sana hv hl g (skey A) R = inr (t, R1) -> kids_ok t -> J s kk R -> SOK s ->
      fst (exec_fn (Dds sp) g pv s) = fst (pvl_fn g pv kk) /\ SOK (snd (exec_fn (Dds sp) g pv s)) /\
      (fn_annot g = None -> forall v, fst (pvl_fn g pv kk) = Ret v -> J (snd (exec_fn (Dds sp) g pv s)) (snd (pvl_fn g pv kk)) R1).

    Lemma W_kept : forall g q A R0 pv k0 t Rc R_after en s,
      W_fn g -> KeptFn g -> LC g A R0 pv k0 -> sana hv hl g (skey A) R0 = inr (t, Rc) -> kids_ok t ->
      blookup q sp = Some (rd (sfi_sig t)) ->
      (forall p, In p (reg_fn g) -> p = q) ->
      (forall p, srlookup p R_after = if bytes_eqb p q then Some (sfi_sig t) else srlookup p Rc) ->
      J s k0 R0 -> SOK s ->
      Wst R_after (kept_call (Dds sp) en s g q pv) (pvl_call en k0 g (Some q) (Some pv)).
    Proof.
      intros g q A R0 pv k0 t Rc R_after en s IHg Hkept HC Hs Hkids Hkey Hflat HRa HJ Hok.
      destruct (sana_content hv hl _ _ _ _ _ Hs) as (c & Hc & Ex).
      assert (Hafter : forall s1 v, J s1 k0 R0 -> blookup (rd (sfi_sig t)) (s_blobs s1) = Some v ->
                                    J s1 (kupd q v (snd (pvl_fn g pv k0))) R_after).
      { intros s1 v HJ1 Hb p sg Hl. rewrite HRa in Hl. destruct (bytes_eqb_spec p q) as [->|E].
        - injection Hl as <-. exists v. rewrite kupd_same.
          split; [reflexivity|]. split; [unfold lkey; rewrite Hkey; reflexivity|exact Hb].
        - assert (Hn : ~ In p (reg_fn g)) by (intro Hin; exact (E (Hflat p Hin))).
          rewrite (cana_frame hv hl _ _ _ _ _ Hc p Hn) in Hl. rewrite kupd_other by exact E.
          rewrite (pvl_frame g pv k0 p Hn). exact (HJ1 p sg Hl). }
      assert (Hknd : forall v, fst (pvl_fn g pv k0) = Ret v -> KND (rd (sfi_sig t)) v)
        by (intros v Hv; exists g, A, R0, pv, k0, t, Rc; repeat split; assumption).
      unfold kept_call, pvl_call. rewrite Hkey. destruct (blookup (rd (sfi_sig t)) (s_blobs s)) as [v|] eqn:Hb.
      - (* served from the store *)
        pose proof (DenN_fun_step m (DenN_fun m) g A R0 pv k0 t Rc v HC Hs (KND_Dn (Hok _ _ Hb))) as Hv.
        pose proof (Hafter s v HJ Hb) as Ha. destruct (pvl_fn g pv k0) as [o k1]. cbn [fst snd] in *. subst o.
        exact (Wst_refl Hok (fun _ _ => Ha)).
      - destruct (IHg A R0 pv k0 t Rc s HC Hs Hkids HJ Hok) as (Ho & Hok1 & _).
        pose proof (exec_blobs_monotone (Dds sp) g pv s) as Hext. pose proof (exec_paths_unchanged (Dds sp) g pv s) as Hpaths.
        destruct (exec_fn (Dds sp) g pv s) as [o s1]. destruct (pvl_fn g pv k0) as [o2 k1] eqn:Eo. cbn [fst snd] in *. subst o2.
        destruct o as [v| | |]; try (apply Wst_refl; [exact Hok1|intros en1 He1; discriminate He1]).
        (* st_put overwrites, but a key denotes one value *)
        destruct (post_put KND s s1 _ v (conj Hok1 Hext) (Hknd v eq_refl)
                           (fun v0 Hd0 => DenN_fun (S m) _ v0 v (KND_Dn Hd0) (KND_Dn (Hknd v eq_refl)))) as [Hok2 Hext2].
        apply Wst_refl; [exact Hok2|]. intros en1 _.
        exact (Hafter _ v (J_ext HJ Hext2 Hpaths) (blookup_bupdate_same _ _ _ _)).
    Qed.

    Local Notation csig c := (isig (cl_a c) (cl_exts c) (cl_vs c)).

    (* the caller has reached a step of its body (SoundnessLoadA.reaches); the two analyses agree on the children so far *)
    Definition W_steps (r : steps) : Prop := forall c k0 pre post inters ch l R en k i1 l1 R1 s,
      reaches hv hl RL c k0 pre (list_of_steps r ++ post) (ch, l, R) en k -> map sfi_sig inters = map enc ch ->
      sana_steps hv hl r (fn_lines (cl_fn c)) (csig c) (inters, l, R) = inr (i1, l1, R1) ->
      (forall y, In y i1 -> resolves sp (rs y)) -> J s k R -> SOK s ->
      Wst R1 (exec_steps (Dds sp) r en s) (pvl_steps r en k).
    Definition W_step (st : step) : Prop := forall c k0 pre post inters ch l R en k i1 l1 R1 s,
      reaches hv hl RL c k0 pre (st :: post) (ch, l, R) en k -> map sfi_sig inters = map enc ch ->
      sana_step hv hl st (fn_lines (cl_fn c)) (csig c) (inters, l, R) = inr (i1, l1, R1) ->
      (forall y, In y i1 -> resolves sp (rs y)) -> J s k R -> SOK s ->
      Wst R1 (exec_step (Dds sp) st en s) (pvl_step st en k).

    Lemma caller_kwf : forall {c k0 pre st post acc en k}, reaches hv hl RL c k0 pre (st :: post) acc en k -> kwf_step st.
    Proof.
      intros c k0 pre st post acc en k (HC & (Hb & _) & _ & _ & Hl). pose proof (b_kwf HB _ (LCons_U HLm HC)) as Hk. unfold kwf_fn in Hk.
      rewrite Hb in Hk. cbn [body_steps] in Hk. rewrite Hl in Hk. apply (proj1 (Forall_forall _ _) Hk).
      apply in_or_app. right. left. reflexivity.
    Qed.

    Lemma W_all : (forall f, W_fn f) /\ (forall s, W_steps s) /\ (forall s, W_step s).
    Proof.
      apply fn_site_ind.
      - (* a function through its executed body: the node is the caller of its first step *)
        intros g IH A R pv kk t R1 s HC Hs Hk HJ Hok. pose proof (LCons_U HLm HC) as Ug.
        rewrite exec_fn_body, pvl_fn_body. destruct (first_body g) as [[vars exts sts]|] eqn:Eb.
        2:{ split; [reflexivity|]. split; [exact Hok|]. intros _ v Hv. discriminate Hv. }
        destruct (sana_fn_steps Hs Eb) as (a & vs & inters & loads & Ra & Ha & Hv & Hst & Hin).
        pose proof (reaches_nil (c := Caller g A R pv vars exts sts a vs) (conj Eb (conj Ha Hv)) HC eq_refl (eq_sym (app_nil_r _))) as Hre.
        destruct (IH vars exts sts eq_refl _ _ [] [] [] [] _ _ _ _ inters loads Ra s Hre eq_refl Hst
                     (body_resolves H sp t inters Hk Hin) HJ Hok) as (Hx & Hok1 & HJ1).
        rewrite exec_body_eq, pvl_body_eq. unfold cl_env in *. cbn [e_params cl_pv cl_vars] in *.
        destruct (exec_steps (Dds sp) sts _ s) as [x s1]. destruct (pvl_steps sts _ kk) as [x2 kb] eqn:Epb.
        cbn [fst snd] in *. subst x2. destruct x as [o1|en1]; cbn [fst snd]; (split; [reflexivity|]); (split; [exact Hok1|]); intros Han v Hv0.
        + exfalso. exact (pvl_steps_not_ret Epb v Hv0).
        + (* the resolved references after the function are those after its body: the content analysis is the same run *)
          destruct (sana_content hv hl _ _ _ _ _ Hs) as (c & Hc & _). destruct (AG_steps_inr (inters := []) (ch := []) eq_refl Hst) as (ch & Hcs & _).
          destruct (cana_fn_steps_U HLm Ug Hc Eb) as (a' & vs' & ch' & loads' & lh & Ra' & Ha' & Hv' & Hcs' & _ & HR1).
          rewrite Ha in Ha'. injection Ha' as <-. rewrite Hv in Hv'. injection Hv' as <-. rewrite Hcs in Hcs'. injection Hcs' as _ _ <-.
          rewrite Han in HR1. exact (J_frame HR1 (HJ1 en1 eq_refl)).
      - intros c k0 pre post inters ch l R en k i1 l1 R1 s _ _ Hs _ HJ Hok. injection Hs as _ _ <-.
        exact (Wst_refl Hok (fun _ _ => HJ)).
      - intros st r IHs IHr c k0 pre post inters ch l R en k i1 l1 R1 s Hre Hi Hs Hres HJ Hok. rewrite sana_steps_cons in Hs.
        destruct (sana_step hv hl st _ _ (inters, l, R)) as [e|[[im lm] Rm]] eqn:Em; [discriminate Hs|].
        destruct (sana_steps_ext Hs) as [more ->].
        destruct (IHs c k0 pre (list_of_steps r ++ post) inters ch l R en k im lm Rm s Hre Hi Em
                      (fun y Hy => Hres y (in_or_app _ _ _ (or_introl Hy))) HJ Hok) as (Hy & Hok1 & HJ1).
        rewrite exec_steps_cons, pvl_steps_cons.
        destruct (exec_step (Dds sp) st en s) as [y s1]. destruct (pvl_step st en k) as [y2 km] eqn:Epv. cbn [fst snd] in *. subst y2.
        destruct y as [o1|enm]; [apply Wst_refl; [exact Hok1|intros en1 He1; discriminate He1]|].
        destruct (AG_step_inr Hi Em) as (chm & Ecm & Him).
        exact (IHr c k0 (pre ++ [st]) post im chm lm Rm enm km _ l1 R1 s1 (reaches_snoc Hre Ecm Epv) Him Hs Hres
                   (HJ1 enm eq_refl) Hok1).
      - (* an analysed call site *)
        intros st g Hg IHg c k0 pre post inters ch l R en k i1 l1 R1 s Hre Hi Hs Hres HJ Hok.
        destruct (caller_step_ok HLm Hre) as [[_ Hlw] _].
        pose proof (caller_kwf Hre) as Hkw. destruct (site_has_end Hg) as [kk Hk].
        destruct (sana_site Hg Hk Hi Hs) as (ph & named & t & R' & Hph & Hn & Ht & -> & _ & ->).
        rewrite (exec_step_site _ st g en s Hg), (pvl_step_site st g en k Hg). destruct (site_runs st) eqn:Er.
        2:{ (* analysed, not run: nothing is registered *)
            destruct (proj2 (lwf_site Hlw Hg) Er) as [-> Hreg]. destruct (sana_content hv hl _ _ _ _ _ Ht) as (c0 & Hc0 & _).
            apply Wst_refl; [exact Hok|]. intros en1 _. apply (J_frame (R := R)); [|exact HJ].
            intros p. apply (cana_frame hv hl _ _ _ _ _ Hc0). rewrite Hreg. intros []. }
        destruct (site_pv st en) as [pv|] eqn:Epv; [|apply Wst_refl; [exact Hok|intros en1 He1; discriminate He1]].
        pose proof (caller_callee Hre Hg Hk Hph Hn Epv) as HCg. pose proof (LCons_U HLm HCg) as Ug.
        assert (Hhere : In (set_path_opt (site_path st) t) (inters ++ [set_path_opt (site_path st) t])) by apply in_elt.
        destruct (site_resolves H sp st t (Hres _ Hhere)) as [Hkids Hkey].
        specialize (Hkey g). rewrite (sana_path_wf H mx UVal U _ (univ_of_base (DenN m)) Ug Ht) in Hkey.
        destruct (site_kpath st g) as [q|] eqn:Eq.
        + (* kept: a data function, or dds.keep *)
          refine (W_kept g q _ R pv k t R' _ en s IHg _ HCg Ht Hkids _ (kwf_site st g q Hkw Hg Er Eq) _ HJ Hok).
          * (* g is a kept function: a data function, or the callee of this keep *)
            unfold site_kpath in Eq. destruct (site_path st) eqn:Esp; [|left; rewrite Eq; discriminate].
            destruct st; try discriminate Esp. injection Hg as ->. right. exists (cl_fn c), line, eline, path, pos, kw.
            destruct Hre as (HC & (Hb & _) & _ & _ & Hl). rewrite (first_steps_of Hb), Hl. split; [exact (LCons_U HLm HC)|].
            split; [discriminate|]. apply in_or_app. right. left. reflexivity.
          * (* its key is the one the evaluation stores under q *)
            exact (Hkey q eq_refl eq_refl).
          * (* the references after the site: q registered (by the keep, or by the data function itself), the rest as the callee left them *)
            intros p. unfold site_kpath in Eq. destruct (site_path st); [injection Eq as <-; apply srlookup_srupdate|].
            destruct (bytes_eqb_spec p q) as [->|_]; [|reflexivity]. pose proof (sana_node Ht) as Hnode.
            destruct (fn_is_class g) eqn:Ec; [rewrite (proj1 (proj2 (b_wf HB g Ug)) Ec) in Eq; discriminate Eq|].
            destruct Hnode as (_ & _ & Ra & _ & _ & ->). rewrite Eq. apply srlookup_srupdate_same.
        + unfold site_kpath in Eq. destruct (site_path st); [discriminate Eq|]. unfold call_at, pvl_call.
          destruct (IHg _ R pv k t R' s HCg Ht Hkids HJ Hok) as (Ho & Hok1 & HJ1).
          destruct (exec_fn (Dds sp) g pv s) as [o s1]. destruct (pvl_fn g pv k) as [o2 k1]. cbn [fst snd] in *. subst o2.
          destruct o as [v| | |]; apply Wst_refl; try exact Hok1; intros en1 He1; try discriminate He1. exact (HJ1 Eq v eq_refl).
      - intros g _ c k0 pre post inters ch l R en k i1 l1 R1 s Hre.
        destruct (proj2 (proj1 (caller_step_ok HLm Hre))).
      - intros p c k0 pre post inters ch l R en k i1 l1 R1 s _ _ Hs _ HJ Hok. rewrite sana_step_SLoad in Hs.
        destruct (srlookup p R) as [sg|] eqn:Er; [|discriminate Hs]. injection Hs as _ _ <-.
        destruct (dds_load_reads_kept s k R p sg en HJ Er) as (v & Hv & Hx). rewrite Hx, pvl_step_load, Hv.
        exact (Wst_refl Hok (fun _ _ => HJ)).
    Qed.
  End WalkL.

  (* every store path of an analysed tree is a resolved reference at the end of the analysis.  Everything is relative to
     the resolved references [Rf] at the end: the analysis only adds references, so what is registered at any moment
     is registered in [Rf] *)
  Section Registered.
    Variable Rf : sresolved.
    Definition regd (q : bytes) : Prop := srlookup q Rf <> None.
    Definition below (R : sresolved) : Prop := forall q, srlookup q R <> None -> regd q.
    Definition paths_regd (x : sfi) : Prop := forall q key, In (q, key) (store_paths_list (rs x)) -> regd q.

    Lemma below_upd : forall o s R, below (srupd_opt o s R) -> below R /\ forall q, o = Some q -> regd q.
    Proof.
      intros [p|] s R Hb; [|split; [exact Hb|discriminate]]. cbn [srupd_opt] in Hb. split.
      - intros q Hq. apply Hb. rewrite srlookup_srupdate. destruct (bytes_eqb q p); [discriminate|exact Hq].
      - intros q E. injection E as <-. apply Hb. rewrite srlookup_srupdate_same. discriminate.
    Qed.
    Lemma paths_regd_node : forall x, (forall y, In y (sfi_children x) -> paths_regd y) ->
      (forall q, sfi_path x = Some q -> regd q) -> paths_regd x.
    Proof.
      intros [s0 p0 n0 a0 l0 ch0] Hk Hp q key Hin. cbn [render_sfi] in Hin. rewrite store_paths_list_eq in Hin.
      apply in_app_or in Hin. destruct Hin as [Hin|Hin].
      - destruct p0 as [q0|]; [|destruct Hin]. destruct Hin as [E|[]]. injection E as <- _. apply Hp. reflexivity.
      - apply in_flat_map in Hin. destruct Hin as (y & Hy & Hq). apply in_map_iff in Hy. destruct Hy as (y0 & <- & Hy0).
        exact (Hk y0 Hy0 q key Hq).
    Qed.
    Lemma paths_regd_set : forall t o, paths_regd t -> (forall q, o = Some q -> regd q) -> paths_regd (set_path_opt o t).
    Proof.
      intros [s0 p0 n0 a0 l0 ch0] [p|] Hp Ho; [|exact Hp]. apply paths_regd_node; [|intros q E; exact (Ho q E)].
      intros y Hy q key Hin. apply (Hp q key). cbn [render_sfi]. rewrite store_paths_list_eq.
      apply in_or_app. right. apply in_flat_map. exists (rs y). split; [apply in_map; exact Hy|exact Hin].
    Qed.

    Definition PR_fn (g : fn) : Prop := forall A R t R1, sana hv hl g A R = inr (t, R1) -> below R1 -> below R /\ paths_regd t.
    Definition PR_bodies (b : bodies) : Prop := forall name lines A R xs R1,
      sana_bodies hv hl b name lines None A R = inr (xs, R1) -> below R1 -> below R /\ forall x, In x xs -> paths_regd x.
    Definition PR_body (b : body) : Prop := forall name lines annot A R x R1,
      sana_body hv hl b name lines annot A R = inr (x, R1) -> below R1 -> (forall q, annot = Some q -> regd q) ->
      below R /\ paths_regd x.
    Definition PR_steps (s : steps) : Prop := forall lines inp i l R i1 l1 R1,
      sana_steps hv hl s lines inp (i, l, R) = inr (i1, l1, R1) -> below R1 ->
      below R /\ forall y, In y i1 -> In y i \/ paths_regd y.
    Definition PR_step (s : step) : Prop := forall lines inp i l R i1 l1 R1,
      sana_step hv hl s lines inp (i, l, R) = inr (i1, l1, R1) -> below R1 ->
      below R /\ forall y, In y i1 -> In y i \/ paths_regd y.

    Lemma PR_all : (forall f, PR_fn f) /\ (forall b, PR_bodies b) /\ (forall b, PR_body b) /\ (forall s, PR_steps s) /\ (forall s, PR_step s).
    Proof.
      apply prog_site_ind.
      - intros g IH IH1 A R t R1 Hs Hb1. pose proof (sana_node Hs) as Hn. destruct (fn_is_class g).
        + destruct Hn as [Hp Eb]. destruct (IH _ _ _ _ _ _ Eb Hb1) as [Hb Hk]. split; [exact Hb|].
          apply paths_regd_node; [exact Hk|rewrite Hp; discriminate].
        + destruct Hn as (b & r & Ra & Er & Eb & ->). destruct (below_upd _ _ Ra Hb1) as [Hb' Ha].
          refine (IH1 b _ _ _ _ _ _ _ _ Eb Hb' Ha). unfold first_body. rewrite Er. reflexivity.
      - intros name lines A R xs R1 Hs Hb1. injection Hs as <- <-. split; [exact Hb1|intros x []].
      - intros b r IHb IHr name lines A R xs R1 Hs Hb1. rewrite sana_bodies_cons in Hs.
        destruct (sana_body hv hl b name lines None A R) as [e|[x R']] eqn:Eb; [discriminate Hs|].
        destruct (sana_bodies hv hl r name lines None A R') as [e|[xs0 R'']] eqn:Er; [discriminate Hs|]. injection Hs as <- <-.
        destruct (IHr _ _ _ _ _ _ Er Hb1) as [Hb' Hk]. destruct (IHb _ _ _ _ _ _ _ Eb Hb' (fun q (E : None = Some q) => match E with end)) as [Hb Hp].
        split; [exact Hb|]. intros x0 [<-|Hx0]; [exact Hp|exact (Hk x0 Hx0)].
      - intros vars exts sts IH name lines annot A R x R1 Hs Hb1 Ha. rewrite sana_body_eq in Hs.
        destruct (sargpairs A) as [e|ap]; [discriminate Hs|]. destruct (svarpairs hv vars) as [e|vp]; [discriminate Hs|].
        destruct (sana_steps hv hl sts lines _ ([], [], R)) as [e|[[i l] R']] eqn:Es; [discriminate Hs|].
        destruct (shash_lines hl lines); [discriminate Hs|]. cbn [SX app] in Hs. injection Hs as <- <-.
        destruct (IH _ _ _ _ _ _ _ _ Es Hb1) as [Hb Hk]. split; [exact Hb|]. apply paths_regd_node; [|exact Ha].
        intros y Hy. destruct (Hk y Hy) as [[]|Hp]. exact Hp.
      - intros lines inp i l R i1 l1 R1 Hs Hb1. injection Hs as <- _ <-. auto.
      - intros st r IHs IHr lines inp i l R i1 l1 R1 Hs Hb1. rewrite sana_steps_cons in Hs.
        destruct (sana_step hv hl st lines inp (i, l, R)) as [e|[[im lm] Rm]] eqn:Em; [discriminate Hs|].
        destruct (IHr _ _ _ _ _ _ _ _ Hs Hb1) as [Hbm Hk2]. destruct (IHs _ _ _ _ _ _ _ _ Em Hbm) as [Hb Hk].
        split; [exact Hb|]. intros y Hy. destruct (Hk2 y Hy) as [Hy'|Hp]; [exact (Hk y Hy')|right; exact Hp].
      - intros st g Hg IHg lines inp i l R i1 l1 R1 Hs Hb1.
        destruct (sana_site_raw Hg Hs) as (_ & _ & c & named & t & R' & _ & _ & _ & Ht & -> & _ & ->).
        destruct (below_upd _ _ R' Hb1) as [Hb' Ho]. destruct (IHg _ _ _ _ Ht Hb') as [Hb Hp]. split; [exact Hb|].
        intros y Hy. apply in_app_or in Hy. destruct Hy as [Hy|[<-|[]]]; [left; exact Hy|right; exact (paths_regd_set t _ Hp Ho)].
      - intros g _ lines inp i l R i1 l1 R1 Hs Hb1. rewrite sana_step_SApply in Hs. injection Hs as <- _ <-. auto.
      - intros p lines inp i l R i1 l1 R1 Hs Hb1. rewrite sana_step_SLoad in Hs. destruct (srlookup p R); [|discriminate Hs].
        injection Hs as <- _ <-. auto.
    Qed.
  End Registered.

  Theorem paths_registered : forall g A R t R1, sana hv hl g A R = inr (t, R1) -> paths_regd R1 t.
  Proof. intros g A R t R1 Hs. exact (proj2 (proj1 (PR_all R1) g A R t R1 Hs (fun q Hq => Hq))). Qed.

  (* every committed path has a blob (no dangling path) *)
  Definition PathsOK (s : state) : Prop :=
    forall p key, blookup p (s_paths s) = Some key -> exists v, blookup key (s_blobs s) = Some v.

  Lemma srlookup_lift0 : forall p R0, srlookup p (lift0 R0) = option_map DBytes (rlookup p R0).
  Proof.
    intros p. induction R0 as [|[k v] r IH]; [reflexivity|]. cbn [lift0 map fst snd srlookup rlookup].
    destruct (bytes_eqb p k); [reflexivity|exact IH].
  Qed.
  Lemma fetch_refs_spec : forall paths ps R0, fetch_refs paths ps = Some R0 ->
    forall p key, rlookup p R0 = Some key -> blookup p paths = Some key /\ In p ps.
  Proof.
    intros paths. induction ps as [|q r IH]; intros R0 Hf p key Hl.
    - injection Hf as <-. discriminate Hl.
    - cbn [fetch_refs] in Hf. destruct (blookup q paths) as [kq|] eqn:Eq; [|discriminate Hf].
      destruct (fetch_refs paths r) as [l|] eqn:Er; [|discriminate Hf]. injection Hf as <-.
      cbn [rlookup] in Hl. destruct (bytes_eqb_spec p q) as [->|_].
      + injection Hl as <-. split; [exact Eq|left; reflexivity].
      + destruct (IH l eq_refl p key Hl) as [A B]. split; [exact A|right; exact B].
  Qed.

  Lemma styled_id : forall f sty y, root_path f sty = None -> styled f sty y = y /\ fn_annot f = None.
  Proof.
    intros f sty y Hr. destruct sty as [|p|]; cbn [root_path styled] in *.
    - split; [reflexivity|exact Hr].
    - discriminate Hr.
    - rewrite Hr. split; reflexivity.
  Qed.

  Lemma fold_bupdate_lookup : forall (sp0 : list (bytes * bytes)) paths p key,
    blookup p (fold_left (fun acc pk => bupdate (fst pk) (snd pk) acc) sp0 paths) = Some key ->
    In (p, key) sp0 \/ blookup p paths = Some key.
  Proof.
    induction sp0 as [|[q kq] r IH]; intros paths p key Hb; [right; exact Hb|].
    cbn [fold_left fst snd] in Hb. destruct (IH _ _ _ Hb) as [Hin|Hb2]; [left; right; exact Hin|].
    destruct (bytes_eqb_spec p q) as [->|E].
    - rewrite blookup_bupdate_same in Hb2. injection Hb2 as <-. left. left. reflexivity.
    - rewrite blookup_bupdate_other in Hb2 by exact E. right. exact Hb2.
  Qed.
  Lemma odict_incl : forall l x, In x (odict l) -> In x l.
  Proof.
    intros l x. induction l as [|kv l IH] using rev_ind; [intros []|]. unfold odict in *. rewrite fold_left_app. cbn [fold_left].
    intros Hin. apply in_or_app. destruct (rlookup (fst kv) _); [left; exact (IH Hin)|].
    apply in_app_or in Hin. destruct Hin as [Hin|Hin]; [left; exact (IH Hin)|right; exact Hin].
  Qed.

  Lemma SOK_S : forall j s, SOK j s -> SOK (S j) s.
  Proof.
    intros j s Hok key v Hb. destruct (Hok key v Hb) as (g & A & R & pv & kk & x & R1 & HC & Hs). exists g, A, R, pv, kk, x, R1.
    split; [exact (LCons_S j _ _ _ _ _ HC)|exact Hs].
  Qed.

  (* THEOREM (top-level call, with loads).  On a sound store without dangling paths, a top-level call of the universe
     - keeps the store sound (two levels higher) and without dangling paths, whatever its outcome;
     - when it runs, returns the plain outcome WITH loads of its function on the bound arguments, the loads reading what
       the committed paths of the store serve ([kept0 s]) or what was kept earlier in the evaluation. *)
  Theorem call_loads : forall j c f sty pos kw s, RootCall f sty pos kw -> SOK j s -> PathsOK s ->
    SOK (S (S j)) (snd (dds_call H mx c f sty pos kw s)) /\ PathsOK (snd (dds_call H mx c f sty pos kw s)) /\
    forall x sp pv, analysis H mx c f sty pos kw s = inr (x, sp) -> has_stage Eval (c_stages c) = true ->
                    bind_top f pos kw = Some pv ->
                    fst (dds_call H mx c f sty pos kw s) = fst (pvl_fn f pv (kept0 s)).
  Proof.
    intros j c f sty pos kw s Hr Hok Hpo.
    pose proof (SOK_S _ _ Hok) as HokM. pose proof (SOK_S _ _ HokM) as Hok2.
    rewrite dds_call_eq.
    destruct (analysis H mx c f sty pos kw s) as [o|[x sp]] eqn:Ha.
    { split; [exact Hok2|]. split; [exact Hpo|]. intros x sp pv Hx. discriminate Hx. }
    destruct (has_stage Eval (c_stages c)) eqn:Hev.
    2:{ split; [exact Hok2|]. split; [exact Hpo|]. intros x0 sp0 pv _ Hx. discriminate Hx. }
    destruct (analysis_invL _ _ _ _ _ _ _ _ _ _ Ha) as (named & R0 & X & R1 & Hn & Hf & Hs & Ex & Esp).
    destruct (b_root HB _ _ _ _ Hr) as (Uf & Hrp & Hkm).
    destruct (styled_id f sty (rs X) Hrp) as [Esty Hann]. rewrite Esty in Ex. subst x.
    pose proof (coherent_resolves _ (b_coherent HB _ _ _ _ _ _ _ _ Hr Ha)) as Hres. rewrite <- Esp in Hres.
    set (m := S j) in *.
    (* the fetched references are served by the store *)
    assert (Hserved : forall p sg, srlookup p (lift0 R0) = Some sg ->
              exists key v, sg = DBytes key /\ blookup p (s_paths s) = Some key /\ In p (loads_to_check c f) /\
                            blookup key (s_blobs s) = Some v).
    { intros p sg Hl. rewrite srlookup_lift0 in Hl. destruct (rlookup p R0) as [key|] eqn:Ek; [|discriminate Hl].
      injection Hl as <-. destruct (fetch_refs_spec _ _ _ Hf p key Ek) as [Hc Hin].
      destruct (Hpo p key Hc) as [v Hv]. exists key, v. repeat split; assumption. }
    destruct (Hkm named Hn) as (pv & Hb & _).
    assert (HCr : LCons hv hl (RootLm (DenN m)) f (named, None) (lift0 R0) pv (kept0 s)).
    { apply LRoot. exists sty, pos, kw. repeat (split; [assumption|]). split.
      - intros p sg Hl. destruct (Hserved p sg Hl) as (key & v & E & Hc & _ & Hv). exists v.
        split; [unfold kept0; rewrite Hc; exact Hv|]. exists key. split; [exact E|]. exact (KND_Dn j (Hok key v Hv)).
      - exists c. intros p sg Hl. destruct (Hserved p sg Hl) as (key & v & _ & _ & Hin & _). exact Hin. }
    assert (HJ0 : J sp s (kept0 s) (lift0 R0)).
    { intros p sg Hl. destruct (Hserved p sg Hl) as (key & v & -> & Hc & Hin & Hv). exists v.
      split; [unfold kept0; rewrite Hc; exact Hv|]. cbn [render]. split; [|exact Hv].
      unfold lkey. rewrite (b_ext_disjoint HB _ _ _ _ _ _ _ _ p Hr Ha Hin). exact Hc. }
    destruct (blookup (fi_sig (rs X)) (s_blobs s)) as [v0|] eqn:Hb0.
    { (* the signature of a top-level function is no store key *)
      exfalso. destruct (HokM _ _ Hb0) as (g & A & R & pv2 & kk & x2 & R12 & HC2 & Hs2 & Hk2 & _ & Hkept).
      rewrite fi_sig_render in Hk2. destruct (same_key_content m HCr HC2 Hs Hs2 (eq_sym Hk2)) as (c1 & Hc1 & Hc2).
      pose proof (LCons_U (luniv_of_base _ (DenN_fun m)) HC2) as Ug. apply (b_root_text HB _ _ _ _ g Hr Ug Hkept).
      exact (same_content_same_lines (univ_of_base (DenN m)) Uf Ug Hc1 Hc2). }
    rewrite Hb. unfold run_root.
    destruct (proj1 (W_all m sp) f (named, None) (lift0 R0) pv (kept0 s) X R1 s HCr Hs (fun y => resolves_kids H sp X y Hres) HJ0 HokM)
      as (Ho & Hok1 & HJ1).
    pose proof (exec_blobs_monotone (Dds sp) f pv s) as Hext. pose proof (exec_paths_unchanged (Dds sp) f pv s) as Hpaths.
    destruct (exec_fn (Dds sp) f pv s) as [o s1]. cbn [fst snd] in *.
    assert (Hpo1 : PathsOK s1).
    { intros p key Hpk. rewrite Hpaths in Hpk. destruct (Hpo p key Hpk) as [v Hv]. exists v. exact (Hext _ _ Hv). }
    assert (Hout : forall pv0, Some pv = Some pv0 -> o = fst (pvl_fn f pv0 (kept0 s)))
      by (intros pv0 Hb2; injection Hb2 as <-; exact Ho).
    destruct o as [v| | |]; cbn [fst snd];
      try (split; [exact (SOK_S _ _ Hok1)|]; split; [exact Hpo1|]; intros x0 sp0 pv0 _ _ Hb2; exact (Hout pv0 Hb2)).
    unfold root_store. rewrite Hrp. split; [|split; [|intros x0 sp0 pv0 _ _ Hb2; exact (Hout pv0 Hb2)]].
    - intros key w Hbw. rewrite commit_blobs in Hbw. exact (SOK_S _ _ Hok1 key w Hbw).
    - intros p key Hpk. rewrite commit_blobs. rewrite commit_paths in Hpk.
      destruct (has_stage PathCommit (c_stages c)); [|exact (Hpo1 p key Hpk)].
      destruct (fold_bupdate_lookup _ _ _ _ Hpk) as [Hin|Hold]; [|exact (Hpo1 p key Hold)].
      (* a path of the evaluation: it is a resolved reference at the end, and J holds there *)
      rewrite Esp in Hin. apply odict_incl in Hin.
      pose proof (paths_registered f _ _ _ _ Hs p key Hin) as Hreg. unfold regd in Hreg.
      destruct (srlookup p R1) as [sg|] eqn:Esg; [|exfalso; apply Hreg; reflexivity].
      destruct (HJ1 Hann v (eq_sym Ho) p sg Esg) as (w & _ & Hkey & Hbw). unfold lkey in Hkey.
      rewrite (Hres p key Hin) in Hkey. injection Hkey as ->. exists w. exact Hbw.
  Qed.

  Theorem history_loads : forall l s j, Forall (in_universe RootCall) l -> SOK j s -> PathsOK s ->
    exists j', SOK j' (run_calls H mx l s) /\ PathsOK (run_calls H mx l s).
  Proof.
    induction l as [|[[[[c f] sty] pos] kw] r IH]; intros s j Hl Hok Hpo; [exists j; split; assumption|].
    inversion Hl as [|? ? Hc Hr]; subst. cbn [in_universe] in Hc. cbn [run_calls do_call].
    destruct (call_loads j c f sty pos kw s Hc Hok Hpo) as (Hok' & Hpo' & _).
    exact (IH _ _ Hr Hok' Hpo').
  Qed.

  Lemma history_from_empty : forall l, Forall (in_universe RootCall) l ->
    exists j, SOK j (run_calls H mx l st_empty) /\ PathsOK (run_calls H mx l st_empty).
  Proof. intros l Hl. apply (history_loads l st_empty 0 Hl); intros p key Hb; discriminate Hb. Qed.

  (* COROLLARY C WITH LOADS.  Every history of top-level calls of the universe from the empty store - programs with
     dds.load, no no_loads_fn premise: the store stays sound and without dangling paths; a rejected call (read before
     produce, path never produced, ...) returns its error and changes nothing; every call that runs returns the plain
     outcome with loads, reading what the committed paths serve at that moment. *)
  Theorem C09_end_to_end_loads_lemma : forall l, Forall (in_universe RootCall) l ->
    StoreOK Den (run_calls H mx l st_empty) /\ PathsOK (run_calls H mx l st_empty) /\
    forall l1 c f sty pos kw l2, l = l1 ++ (c, f, sty, pos, kw) :: l2 ->
      let s := run_calls H mx l1 st_empty in
      (forall o, analysis H mx c f sty pos kw s = inl o -> dds_call H mx c f sty pos kw s = (o, s)) /\
      (forall x sp pv, analysis H mx c f sty pos kw s = inr (x, sp) -> has_stage Eval (c_stages c) = true ->
                       bind_top f pos kw = Some pv ->
                       fst (dds_call H mx c f sty pos kw s) = fst (pvl_fn f pv (kept0 s))).
  Proof.
    intros l Hl. destruct (history_from_empty l Hl) as (j' & Hok & Hpo).
    split; [intros key v Hb; exists (S j'); exact (KND_Dn j' (Hok key v Hb))|]. split; [exact Hpo|].
    intros l1 c f sty pos kw l2 -> s. apply Forall_app in Hl. destruct Hl as [Hl1 Hl2].
    inversion Hl2 as [|? ? Hc _]; subst. cbn [in_universe] in Hc.
    destruct (history_from_empty l1 Hl1) as (j1 & Hok1 & Hpo1).
    split; [intros o Ha; exact (rejected_is_pure H mx c f sty pos kw s o Ha)|].
    exact (proj2 (proj2 (call_loads j1 c f sty pos kw s Hc Hok1 Hpo1))).
  Qed.

  (* C09 (b): a kept reader is served from the store iff the signature found at the paths it loads is unchanged.  Two
     consistent nodes whose contents differ at most in the loads (path, signature found): same store key iff same loads -
     the byte-level counterpart of C09b, through injective rendering *)
  Theorem reader_key_iff : forall m g A R pv kk x R1 g' A' R' pv' kk' x' R1' lh a l l' ch exts vars Rc Rc',
    LCons hv hl (RootLm (DenN m)) g A R pv kk -> LCons hv hl (RootLm (DenN m)) g' A' R' pv' kk' ->
    sana hv hl g (skey A) R = inr (x, R1) -> sana hv hl g' (skey A') R' = inr (x', R1') ->
    cana hv hl g A R = inr (Content lh a l ch exts vars, Rc) ->
    cana hv hl g' A' R' = inr (Content lh a l' ch exts vars, Rc') ->
    (rd (sfi_sig x) = rd (sfi_sig x') <-> l = l').
  Proof.
    intros m g A R pv kk x R1 g' A' R' pv' kk' x' R1' lh a l l' ch exts vars Rc Rc' HC HC' Hs Hs' Hc Hc'. split.
    - intros Hk. destruct (same_key_content m HC HC' Hs Hs' Hk) as (c & Hc0 & Hc0').
      rewrite Hc in Hc0. rewrite Hc' in Hc0'. injection Hc0 as <- _. injection Hc0' as -> _. reflexivity.
    - intros <-. destruct (sana_content hv hl _ _ _ _ _ Hs) as (c & Hc0 & ->). destruct (sana_content hv hl _ _ _ _ _ Hs') as (c' & Hc0' & ->).
      rewrite Hc in Hc0. rewrite Hc' in Hc0'. injection Hc0 as <- _. injection Hc0' as <- _. reflexivity.
  Qed.

  (* what "served" / "evaluated again" means for a kept node inside an evaluation *)
  Theorem kept_served_or_executed : forall sp en s g q pv key,
    blookup q sp = Some key ->
    (forall v, blookup key (s_blobs s) = Some v ->
       EvalProofs.kept_call (Dds sp) en s g q pv = (inr (add_local en v), s)) /\
    (blookup key (s_blobs s) = None ->
       EvalProofs.kept_call (Dds sp) en s g q pv =
       match exec_fn (Dds sp) g pv s with
       | (Ret v, s') => (inr (add_local en v), st_put key v s')
       | (o, s') => (inl o, s')
       end).
  Proof.
    intros sp en s g q pv key Hk. unfold EvalProofs.kept_call. rewrite Hk.
    split; [intros v Hb|intros Hb]; rewrite Hb; reflexivity.
  Qed.
End LoadB.

(* C09 (a): a load sees the latest keep (plain meaning; the theorems above transport it to the memoised execution) *)
Lemma call_sets_kept : forall s g p en k en1 k1, site_callee s = Some g -> site_runs s = true -> site_kpath s g = Some p ->
  pvl_step s en k = (inr en1, k1) -> exists v, e_locals en1 = e_locals en ++ [v] /\ k1 p = Some v.
Proof.
  intros s g p en k en1 k1 Hg Hr Hp H. rewrite (pvl_step_site s g en k Hg), Hr, Hp in H.
  destruct (site_pv s en) as [pv|]; cbn [pvl_call] in H; [|discriminate H].
  destruct (pvl_fn g pv k) as [[v| | |] k0]; try discriminate H. injection H as <- <-.
  exists v. split; [reflexivity|apply kupd_same].
Qed.

Lemma data_call_sets_kept : forall l e g args p en k en1 k1, fn_annot g = Some p ->
  pvl_step (SCall l e g args) en k = (inr en1, k1) ->
  exists v, e_locals en1 = e_locals en ++ [v] /\ k1 p = Some v.
Proof. intros l e g args p en k en1 k1 Ha. exact (call_sets_kept (SCall l e g args) g p en k en1 k1 eq_refl eq_refl Ha). Qed.

Lemma load_reads_kept : forall p en k v, k p = Some v -> pvl_step (SLoad p) en k = (inr (add_local en v), k).
Proof. intros p en k v Hk. rewrite pvl_step_load, Hk. reflexivity. Qed.

(* after dds.keep(p, g, ...) and any steps - at any depth - that keep nothing at p, dds.load(p) returns the value the
   keep returned *)
Theorem load_sees_latest_keep : forall l e p g pos kw mid en k en1 k1 en2 k2,
  pvl_step (SKeep l e p g pos kw) en k = (inr en1, k1) ->
  ~ In p (reg_steps mid) -> pvl_steps mid en1 k1 = (inr en2, k2) ->
  exists v, e_locals en1 = e_locals en ++ [v] /\ pvl_step (SLoad p) en2 k2 = (inr (add_local en2 v), k2).
Proof.
  intros l e p g pos kw mid en k en1 k1 en2 k2 Hk Hn Hm.
  destruct (call_sets_kept (SKeep l e p g pos kw) g p en k en1 k1 eq_refl eq_refl eq_refl Hk) as (v & Hl & Hv).
  exists v. split; [exact Hl|]. apply load_reads_kept.
  pose proof (pvl_steps_frame mid en1 k1 p Hn) as Hf. rewrite Hm in Hf. cbn [snd] in Hf. rewrite Hf. exact Hv.
Qed.

(* ... also in a function called later: the environment it starts from still has that value *)
Theorem load_sees_latest_keep_in_callee : forall p v h pv k, k p = Some v ->
  forall vars exts pre post, fn_bodies h = BCons (Body vars exts (steps_of (pre ++ SLoad p :: post))) BNil ->
  ~ In p (reg_l pre) ->
  forall en1 k1, pvl_steps (steps_of pre) (Env pv (map snd vars) []) k = (inr en1, k1) ->
  pvl_step (SLoad p) en1 k1 = (inr (add_local en1 v), k1).
Proof.
  intros p v h pv k Hk vars exts pre post _ Hn en1 k1 Hp. apply load_reads_kept.
  pose proof (pvl_steps_frame (steps_of pre) (Env pv (map snd vars) []) k p) as Hf.
  rewrite reg_steps_l, list_of_steps_of in Hf. specialize (Hf Hn). rewrite Hp in Hf. cbn [snd] in Hf. rewrite Hf. exact Hk.
Qed.

(* ---------------------------------------------------------------------------------------------------------------- *)
(* regression theorems of two findings about dds.load (found by this proof, reproduced on the real library, REPAIRED)  *)
(* ---------------------------------------------------------------------------------------------------------------- *)
Definition lx_cfg : config := Config [Analysis; StoreInspect; Eval; StoreCommit; PathCommit] true.

(* FINDING F33 (repaired).  A by-name mention of g that is NOT a call (x = g), g keeping '/q' below, followed by
   dds.load('/q'): the analysis walks g as a pseudo-call, registers '/q' and accepts the load; nothing produces '/q' at
   run time.  The load used to return None silently (dds.eval(f) = ('f', None)).  Since the fix a load of a path that the
   evaluation is expected to produce and that has no blob yet raises LOAD_BEFORE_STORE (model: DdsEval.exec_step).
   The program is now REJECTED at run time; it is still not equal to the plain outcome (plainly it fails with another
   error: nothing was ever kept at '/q'), so the hypothesis [lwf_step] (SRef _ g false -> reg_fn g = []) stays. *)
Definition fa_h : fn :=
  Fn (bs "m/h") (bs "h") None [bs "def h():"; bs "    return 'hv'"; bs ""] [] None false (BCons (Body [] [] SNil) BNil).
Definition fa_g : fn :=
  Fn (bs "m/g") (bs "g") None [bs "def g():"; bs "    return dds.keep('/q', h)"; bs ""] [] None false
     (BCons (Body [] [] (SCons (SKeep 1 1 (bs "/q") fa_h [] []) SNil)) BNil).
Definition fa_f : fn :=
  Fn (bs "m/f") (bs "f") None [bs "def f():"; bs "    x = g"; bs "    return ('f', dds.load('/q'))"; bs ""] [] None false
     (BCons (Body [] [] (SCons (SRef 1 fa_g false) (SCons (SLoad (bs "/q")) SNil))) BNil).
Example byname_producer_rejected :
  (* the evaluation fails with the DDS error, commits nothing, stores nothing ... *)
  dds_call sx_H None lx_cfg fa_f StEval [] [] st_empty = (DdsErr "LOAD_BEFORE_STORE", st_empty) /\
  (* ... the plain program fails too (nothing is kept at '/q'), with the error of a never-produced path *)
  fst (pvl_fn fa_f [] (kept0 st_empty)) = DdsErr "NONE" /\
  ~ lwf_step (SRef 1 fa_g false).
Proof. split; [vm_compute; reflexivity|]. split; [vm_compute; reflexivity|]. intro Hc. vm_compute in Hc. discriminate Hc. Qed.

(* FINDING F34 (repaired).  dds.keep('/p', f) at top level where f loads '/p' (committed earlier with the value of old()):
   the path of a top-level keep is not among the paths "produced by the evaluation" that the pre-pass subtracts, the
   committed reference is fetched and the load accepted; at run time '/p' is a requested path whose blob does not exist
   yet.  The load used to return None (('f', None)); since the fix the evaluation fails with LOAD_BEFORE_STORE and the
   store is unchanged ('/p' still serves the old value).  Plainly f returns ('f', 'old'): the self-dependent keep is now
   rejected rather than wrong, but not equal to the plain outcome, so [b_root] (root_path = None) stays. *)
Definition fb_old : fn :=
  Fn (bs "m/old") (bs "old") None [bs "def old():"; bs "    return 'old'"; bs ""] [] None false (BCons (Body [] [] SNil) BNil).
Definition fb_f : fn :=
  Fn (bs "m/f") (bs "f") None [bs "def f():"; bs "    return ('f', dds.load('/p'))"; bs ""] [] None false
     (BCons (Body [] [] (SCons (SLoad (bs "/p")) SNil)) BNil).
Example root_keep_self_load_rejected :
  let s1 := snd (dds_call sx_H None lx_cfg fb_old (StKeep (bs "/p")) [] [] st_empty) in
  dds_call sx_H None lx_cfg fb_f (StKeep (bs "/p")) [] [] s1 = (DdsErr "LOAD_BEFORE_STORE", s1) /\
  kept0 s1 (bs "/p") = Some (RTup [RVal (VStr (bs "old"))]) /\
  fst (pvl_fn fb_f [] (kept0 s1)) = Ret (RTup [RVal (VStr (bs "f")); RTup [RVal (VStr (bs "old"))]]).
Proof. split; [vm_compute; reflexivity|]. split; vm_compute; reflexivity. Qed.

(* a load of a path that is kept LATER in the same function is rejected (by the whole-tree pre-pass, which [lx_cfg]
   switches on) and the call changes nothing *)
Definition fc_f : fn :=
  Fn (bs "m/f") (bs "f") None [bs "def f():"; bs "    a = dds.load('/q')"; bs "    return (a, dds.keep('/q', h))"; bs ""] [] None false
     (BCons (Body [] [] (SCons (SLoad (bs "/q")) (SCons (SKeep 2 2 (bs "/q") fa_h [] []) SNil))) BNil).
Example load_before_keep_rejected :
  let s1 := snd (dds_call sx_H None lx_cfg fa_h (StKeep (bs "/q")) [] [] st_empty) in
  dds_call sx_H None lx_cfg fc_f StEval [] [] s1 = (DdsErr "LOAD_BEFORE_STORE", s1).
Proof. vm_compute. reflexivity. Qed.

(* ---------------------------------------------------------------------------------------------------------------- *)
(* non-vacuity: a universe with loads satisfying every hypothesis                                                    *)
(* ---------------------------------------------------------------------------------------------------------------- *)
(* @dds.data_function('/d') def prod(): return 'p1'            (version 2: 'p2')
   def reader(): return ('rd', dds.load('/d'))
   def main(): a = prod(); return (a, dds.keep('/r', reader))
   Top-level calls: dds.eval(main), two versions of the producer. *)
Definition lx_lprod1 : list bytes := [bs "@dds.data_function('/d')"; bs "def prod():"; bs "    return 'p1'"; bs ""].
Definition lx_lprod2 : list bytes := [bs "@dds.data_function('/d')"; bs "def prod():"; bs "    return 'p2'"; bs ""].
Definition lx_lreader : list bytes := [bs "def reader():"; bs "    return ('rd', dds.load('/d'))"; bs ""; bs ""].
Definition lx_lmain : list bytes := [bs "def main():"; bs "    a = prod()"; bs "    return (a, dds.keep('/r', reader))"; bs ""].
Definition lx_prod1 : fn :=
  Fn (bs "m/prod") (bs "p1") None lx_lprod1 [] (Some (bs "/d")) false (BCons (Body [] [] SNil) BNil).
Definition lx_prod2 : fn :=
  Fn (bs "m/prod") (bs "p2") None lx_lprod2 [] (Some (bs "/d")) false (BCons (Body [] [] SNil) BNil).
Definition lx_reader : fn :=
  Fn (bs "m/reader") (bs "rd") None lx_lreader [] None false (BCons (Body [] [] (SCons (SLoad (bs "/d")) SNil)) BNil).
Definition lx_call (p : fn) : step := SCall 1 1 p [].
Definition lx_keep : step := SKeep 2 2 (bs "/r") lx_reader [] [].
Definition lx_main (p : fn) : fn :=
  Fn (bs "m/main") (bs "main") None lx_lmain [] None false (BCons (Body [] [] (SCons (lx_call p) (SCons lx_keep SNil))) BNil).
Definition lx_main1 : fn := lx_main lx_prod1.
Definition lx_main2 : fn := lx_main lx_prod2.

Definition lx_UVal (v : pyval) : Prop := False.
Definition lx_U (f : fn) : Prop := f = lx_main1 \/ f = lx_main2 \/ f = lx_prod1 \/ f = lx_prod2 \/ f = lx_reader.
Definition lx_RootCall (f : fn) (sty : style) (pos : list pyval) (kw : list (bytes * pyval)) : Prop :=
  (f = lx_main1 \/ f = lx_main2) /\ sty = StEval /\ pos = [] /\ kw = [].

Definition lx_callc (f : fn) : call := (lx_cfg, f, StEval, [], []).
(* version 1, then the producer edited, then back to version 1 *)
Definition lx_history : list call := [lx_callc lx_main1; lx_callc lx_main2; lx_callc lx_main1].

(* the analysis of the two roots, evaluated once: the signature of main, of the producer and of the reader below it;
   everything else that needs a digest of this universe reads it here *)
Definition lx_fi (sm sp sr : string) : fi :=
  FI (bs sm) None (bs "m/main") 0 []
     [FI (bs sp) (Some (bs "/d")) (bs "m/prod") 0 [] []; FI (bs sr) (Some (bs "/r")) (bs "m/reader") 0 [bs "/d"] []].
Definition lx_fi1 : fi := lx_fi "b31996b2663d694" "1a9ca7ebc56cd5f" "ddbdacfc19a1009".
Definition lx_fi2 : fi := lx_fi "86b7dc08fb478b" "5b97cbb3a441551" "265fb1c76e6db9".
Definition lx_fis : list (fn * fi) := [(lx_main1, lx_fi1); (lx_main2, lx_fi2)].

(* the reference of the load is produced inside the evaluation: the analysis of main does not look at the store *)
Lemma lx_analysis : forall s, Forall (fun fx => analysis sx_H None lx_cfg (fst fx) StEval [] [] s = inr (snd fx, all_store_paths (snd fx))) lx_fis.
Proof. intros s. repeat (constructor; [vm_compute; reflexivity|]). constructor. Qed.

Lemma lx_loads_to_check : forall c f, f = lx_main1 \/ f = lx_main2 -> loads_to_check c f = [].
Proof. intros [st b] f [ -> | -> ]; destruct b; reflexivity. Qed.

Lemma lx_root_analysis : forall c f s, f = lx_main1 \/ f = lx_main2 ->
  exists x, In (f, x) lx_fis /\ analysis sx_H None c f StEval [] [] s = inr (x, all_store_paths x).
Proof.
  intros c f s Hf. pose proof (lx_analysis s) as Ha. rewrite Forall_forall in Ha.
  assert (Ec : analysis sx_H None c f StEval [] [] s = analysis sx_H None lx_cfg f StEval [] [] s)
    by (unfold analysis; rewrite !(lx_loads_to_check _ f Hf); reflexivity).
  rewrite Ec. destruct Hf as [ -> | -> ]; [exists lx_fi1|exists lx_fi2]; (split; [|apply (Ha (_, _))]); cbn; auto.
Qed.

(* line hashing does not collide on the prefixes of the four texts: [hl_inj_onb] of ClosedUniverse.v, evaluated *)
Definition lx_texts : list (list bytes) := [lx_lmain; lx_lprod1; lx_lprod2; lx_lreader].
Lemma lx_hl_checked : hl_inj_onb sx_H lx_texts = true.
Proof. vm_compute. reflexivity. Qed.
Lemma lx_lines_of : forall f, lx_U f -> In (fn_lines f) lx_texts.
Proof. intros f [ -> | [ -> | [ -> | [ -> | -> ] ] ] ]; cbn; auto 6. Qed.

(* the consistent nodes, enumerated by the version of the producer: (function, argument context, resolved references) *)
Definition lx_prods : list fn := [lx_prod1; lx_prod2].
Definition lx_site0 : content := Content (hash_of (sx_hl (firstn 2 lx_lmain))) (ArgsKnown []) [] [] [] [].
(* main(p) analysed up to its second call site: the content of the producer, no load, '/d' registered *)
Definition lx_mid (p : fn) : cst3 :=
  match cana_steps sx_hv sx_hl (SCons (lx_call p) SNil) lx_lmain (ArgsKnown []) [] [] ([], [], []) with
  | inr acc => acc
  | inl _ => ([], [], [])
  end.
Definition lx_site1 (p : fn) : content :=
  Content (hash_of (sx_hl (firstn 3 lx_lmain))) (ArgsKnown []) (snd (fst (lx_mid p))) (fst (fst (lx_mid p))) [] [].
Definition lx_nodes : list (fn * cargctx * sresolved) :=
  flat_map (fun p => [(lx_main p, ([], None), []); (p, ([], Some lx_site0), []);
                      (lx_reader, ([], Some (lx_site1 p)), snd (lx_mid p))]) lx_prods.

Lemma lx_root_version : forall f, f = lx_main1 \/ f = lx_main2 -> exists p, In p lx_prods /\ f = lx_main p.
Proof. intros f [ -> | -> ]; eexists; (split; [|reflexivity]); cbn; auto. Qed.

Lemma lx_cons_enum : forall D g A R pv k, LCons sx_hv sx_hl (RootLm sx_H None lx_RootCall D) g A R pv k -> In (g, A, R) lx_nodes.
Proof.
  intros D g A R pv k HC.
  induction HC as [f named R0 pv k0 Hr|f Af Rf pvf kf vars exts sts af vs pre s post ch loads R1 en ks g kk ph named pv
                     Hf IH Hfb Hl Haf Hvs Hca Hpv Hg Hk Hph Hn Hspv]; apply in_flat_map.
  - destruct Hr as (sty & pos & kw & [Hf [ -> [ -> -> ] ] ] & Hn & Hb & _ & c & Hc).
    assert (ER : R0 = []).
    { destruct R0 as [|[p sg] r]; [reflexivity|]. exfalso. rewrite (lx_loads_to_check c f Hf) in Hc.
      apply (Hc p sg). cbn [srlookup]. rewrite bytes_eqb_refl. reflexivity. }
    destruct (lx_root_version f Hf) as (p & Hin & ->). subst R0. cbn in Hn. injection Hn as <-.
    exists p. split; [exact Hin|left; reflexivity].
  - clear Hpv Hspv. apply in_flat_map in IH. destruct IH as (p & Hin & [E|[E|[E|[]]]]); injection E as <- <- <-.
    + (* the caller is main(p): the site is the call of p, or the keep of the reader after it.  Nothing is evaluated:
         the digests are those of [lx_site0], the analysis before the keep is [lx_mid p] itself. *)
      exists p. split; [exact Hin|]. cbn in Hfb. injection Hfb as <- <- <-. cbn [list_of_steps] in Hl. apply clines_hash_of in Hph.
      cbn in Haf, Hvs. injection Haf as <-. injection Hvs as <-. subst ph.
      destruct pre as [|s0 [|s1 pre]]; [| |destruct pre; discriminate Hl]; injection Hl as <- <-;
        cbn in Hg, Hk; injection Hg as <-; injection Hk as <-.
      * right. left. cbn in Hca. injection Hca as <- <- <-.
        destruct Hin as [<-|[<-|[]]]; cbn in Hn; injection Hn as <-; reflexivity.
      * right. right. left. cbn in Hn. injection Hn as <-.
        change (cana_steps sx_hv sx_hl (SCons (lx_call p) SNil) lx_lmain (ArgsKnown []) [] [] ([], [], []) = inr (ch, loads, R1)) in Hca.
        unfold lx_site1, lx_mid. rewrite Hca. reflexivity.
    + (* the caller is a producer: no steps *)
      exfalso. destruct Hin as [<-|[<-|[]]]; cbn in Hfb; injection Hfb as <- <- <-; destruct pre; discriminate Hl.
    + (* the caller is the reader: its one step is a load *)
      exfalso. cbn in Hfb. injection Hfb as <- <- <-. cbn [list_of_steps] in Hl.
      destruct pre as [|s0 pre]; [|destruct pre; discriminate Hl]. injection Hl as <- <-. discriminate Hg.
Qed.

Definition lx_X (f : fn) : sfi :=
  match sana sx_hv sx_hl f ([], None) [] with inr (X, _) => X | inl _ => SFI (DBytes []) None [] 0 [] [] end.
Definition lx_terms : list dg := flat_map (fun fx => sfi_sigs (lx_X (fst fx))) lx_fis.

(* the producer and the reader are analysed below main as they are by themselves: both sides unfold in step, the digests
   are the same terms on both sides and are not evaluated *)
Lemma lx_node_terms : Forall2 (fun n t => option_map sfi_sig (sfi_of (sana sx_hv sx_hl (fst (fst n)) (skey (snd (fst n))) (snd n))) = Some t)
                              lx_nodes lx_terms.
Proof. repeat (constructor; [reflexivity|]). constructor. Qed.

Lemma lx_node_sig_enum : forall m t, node_sigL sx_H None lx_RootCall m t -> In t lx_terms.
Proof.
  intros m t (g & A & R & pv & kk & x & R1 & HC & Hs & ->). apply lx_cons_enum in HC.
  destruct (Forall2_In_l _ _ _ _ _ _ lx_node_terms HC) as (t & Ht & E). cbn [fst snd] in E.
  unfold sx_hv, sx_hl in E. rewrite Hs in E. injection E as <-. exact Ht.
Qed.

Lemma lx_rendered : Forall (fun fx => render_sfi sx_H (lx_X (fst fx)) = snd fx) lx_fis.
Proof.
  apply Forall_forall. intros [f x] Hin. cbn [fst snd].
  pose proof (lx_analysis st_empty) as Ha. rewrite Forall_forall in Ha. specialize (Ha _ Hin). cbn [fst snd] in Ha.
  destruct (analysis_invL _ _ _ _ _ _ _ _ _ _ Ha) as (named & R0 & X & R1 & Hn & Hfr & Hs & -> & _).
  assert (Hf : f = lx_main1 \/ f = lx_main2) by (destruct Hin as [E|[E|[]]]; injection E as <- _; auto).
  rewrite (lx_loads_to_check _ f Hf) in Hfr. cbn in Hfr. injection Hfr as <-.
  assert (E : sfi_of (sana sx_hv sx_hl f (named, None) (lift0 [])) = Some (lx_X f))
    by (destruct Hf as [ -> | -> ]; cbn in Hn; injection Hn as <-; reflexivity).
  unfold sx_hv, sx_hl in E. rewrite Hs in E. injection E as <-. destruct Hf as [ -> | -> ]; reflexivity.
Qed.

Lemma lx_terms_checked : List.length lx_terms = 6 /\ nodupb (map (render sx_H) lx_terms) = true.
Proof.
  split; [reflexivity|]. assert (E : map (render sx_H) lx_terms = flat_map (fun fx => fi_sigs (snd fx)) lx_fis).
  { unfold lx_terms. pose proof lx_rendered as Hr. induction Hr as [|fx l E _ IH]; [reflexivity|].
    cbn [flat_map]. rewrite map_app, render_sfi_sigs, E, IH. reflexivity. }
  rewrite E. reflexivity.
Qed.

Lemma lx_kept_fns : forall g, lx_U g -> KeptFn lx_U g -> g = lx_prod1 \/ g = lx_prod2 \/ g = lx_reader.
Proof.
  intros g Ug [Ha|(f & l & e & p & pos & kw & Uf & _ & Hin)].
  - destruct Ug as [ -> | [ -> | [ -> | [ -> | -> ] ] ] ]; auto; exfalso; apply Ha; reflexivity.
  - destruct Uf as [ -> | [ -> | [ -> | [ -> | -> ] ] ] ]; cbn in Hin;
      repeat (destruct Hin as [Hin|Hin]; [try discriminate Hin|]); try contradiction;
      injection Hin as _ _ _ <- _ _; auto.
Qed.

Theorem lx_universe_ok : lbase_ok sx_H None lx_UVal lx_U lx_RootCall.
Proof.
  constructor.
  - (* closed *)
    intros f g [ -> | [ -> | [ -> | [ -> | -> ] ] ] ] Hin; cbn in Hin; try contradiction;
      repeat (destruct Hin as [<-|Hin]; [unfold lx_U; auto 6|]); contradiction.
  - (* well-formed *)
    intros f [ -> | [ -> | [ -> | [ -> | -> ] ] ] ]; (split; [repeat constructor|split; [intro Hc; discriminate Hc|]]);
      cbn; (split; [constructor|]); cbn; repeat split; try constructor.
  - (* text -> skeleton *)
    intros f f' [ -> | [ -> | [ -> | [ -> | -> ] ] ] ] [ -> | [ -> | [ -> | [ -> | -> ] ] ] ] Hl;
      first [reflexivity | (exfalso; vm_compute in Hl; discriminate Hl)].
  - (* prefix -> skeleton up to the call *)
    intros f f' pre s post pre' s' post' k k' Uf Uf' Hfs Hfs' Hk Hk' _ Hrank.
    assert (Hone : forall f0 pre0 s0 post0 k0, lx_U f0 -> first_steps f0 = Some (pre0 ++ s0 :: post0) -> site_end s0 = Some k0 ->
              fn_params f0 = [] /\ ((pre0 = [] /\ exists p, s0 = lx_call p) \/ (exists p, pre0 = [lx_call p] /\ s0 = lx_keep))).
    { intros f0 pre0 s0 post0 k0 Uf0 E Hk0.
      destruct Uf0 as [ -> | [ -> | [ -> | [ -> | -> ] ] ] ]; cbn in E; injection E as E; (split; [reflexivity|]).
      1,2: (* main: the call of the producer, then the keep of the reader *)
        destruct pre0 as [|s1 [|s2 pre0]]; [| |destruct pre0; discriminate E]; injection E as <- <-;
        [left; split; [reflexivity|eexists; reflexivity]|right; eexists; split; reflexivity].
      1,2: (* a producer has no step *) destruct pre0; discriminate E.
      (* the reader: its one step is a load, which is no call site *)
      destruct pre0 as [|s1 pre0]; [|destruct pre0; discriminate E]. injection E as <- _. discriminate Hk0. }
    destruct (Hone _ _ _ _ _ Uf Hfs Hk) as ( -> & Hs). destruct (Hone _ _ _ _ _ Uf' Hfs' Hk') as ( -> & Hs').
    (* the rank tells the two sites of main apart: no interaction before the call, one before the keep *)
    destruct Hs as [( -> & p & -> )|(p & -> & -> )], Hs' as [( -> & p' & -> )|(p' & -> & -> )];
      cbn in Hrank; try discriminate Hrank; split; reflexivity.
  - (* line hashing *)
    intros f f' n n' h Uf Uf'.
    exact (hl_inj_on_prefixes sx_H lx_texts lx_hl_checked _ _ n n' h (lx_lines_of f Uf) (lx_lines_of f' Uf')).
  - (* value hashing: no value in UVal *)
    intros v w h [].
  - (* lwf *)
    intros f [ -> | [ -> | [ -> | [ -> | -> ] ] ] ]; cbn; repeat split; auto; intros [].
  - (* kept nodes are flat *)
    intros f [ -> | [ -> | [ -> | [ -> | -> ] ] ] ]; unfold kwf_fn; cbn; repeat constructor.
  - (* top-level calls *)
    intros f sty pos kw [Hf [ -> [ -> -> ] ] ]. split; [unfold lx_U; destruct Hf as [ -> | -> ]; auto|].
    split; [destruct Hf as [ -> | -> ]; reflexivity|].
    intros named Hn. destruct Hf as [ -> | -> ]; cbn in Hn; injection Hn as <-; exists []; (split; [reflexivity|exact (Forall2_nil _)]).
  - (* the text of main is not that of a kept function *)
    intros f sty pos kw g [Hf _] Ug Hkept Hl. destruct (lx_kept_fns g Ug Hkept) as [ -> | [ -> | -> ] ];
      destruct Hf as [ -> | -> ]; vm_compute in Hl; discriminate Hl.
  - (* rendering is injective on the six signature terms *)
    intros m t t' Ht Ht' Hr.
    exact (nodupb_inj _ (render sx_H) lx_terms (proj2 lx_terms_checked) t t' (lx_node_sig_enum m t Ht) (lx_node_sig_enum m t' Ht') Hr).
  - (* coherent: the two kept paths of an evaluation differ *)
    intros f sty pos kw c s x sp [Hf [ -> [ -> -> ] ] ] Ha.
    destruct (lx_root_analysis c f s Hf) as (x0 & Hin & Ha0). rewrite Ha0 in Ha. injection Ha as <- _.
    destruct Hin as [E|[E|[]]]; injection E as _ <-; reflexivity.
  - (* fetched references are not produced *)
    intros f sty pos kw c s x sp p [Hf _] _ Hin. rewrite (lx_loads_to_check c f Hf) in Hin. destruct Hin.
Qed.

Lemma lx_history_in_universe : Forall (in_universe lx_RootCall) lx_history.
Proof.
  unfold lx_history. repeat (apply Forall_cons; [cbn; unfold lx_RootCall; repeat split; auto|]). apply Forall_nil.
Qed.

Lemma lx_call_after : forall f x s, In (f, x) lx_fis -> dds_call sx_H None lx_cfg f StEval [] [] s = call_after lx_cfg f x s.
Proof.
  intros f x s Hin. pose proof (lx_analysis s) as Ha. rewrite Forall_forall in Ha.
  apply dds_call_after; [exact (Ha _ Hin)|reflexivity|]. destruct Hin as [E|[E|[]]]; injection E as <- _; reflexivity.
Qed.

(* each call returns the plain outcome with loads of its version: the reader sees the value of the producer of ITS
   version (p1, p2, p1); in the second call the producer AND the reader run again (the signature found at '/d' changed), in
   the third the producer and the reader are served from the store and only main, which is not kept, runs (log).  Premises discharged by computation. *)
Example lx_end_to_end :
  StoreOK (Den sx_H None lx_RootCall) (run_calls sx_H None lx_history st_empty) /\
  PathsOK (run_calls sx_H None lx_history st_empty) /\
  (let s1 := run_calls sx_H None [lx_callc lx_main1] st_empty in
   fst (dds_call sx_H None lx_cfg lx_main2 StEval [] [] s1) = fst (pvl_fn lx_main2 [] (kept0 s1))) /\
  (let s2 := run_calls sx_H None [lx_callc lx_main1; lx_callc lx_main2] st_empty in
   fst (dds_call sx_H None lx_cfg lx_main1 StEval [] [] s2) = fst (pvl_fn lx_main1 [] (kept0 s2))) /\
  fst (pvl_fn lx_main2 [] (kept0 (run_calls sx_H None [lx_callc lx_main1] st_empty))) =
    Ret (RTup [RVal (VStr (bs "main")); RTup [RVal (VStr (bs "p2"))]; RTup [RVal (VStr (bs "rd")); RTup [RVal (VStr (bs "p2"))]]]) /\
  s_log (run_calls sx_H None lx_history st_empty) = [bs "p1"; bs "rd"; bs "main"; bs "p2"; bs "rd"; bs "main"; bs "main"].
Proof.
  destruct (C09_end_to_end_loads_lemma sx_H None lx_UVal lx_U lx_RootCall lx_universe_ok lx_history lx_history_in_universe)
    as (Hok & Hpo & Hcalls).
  split; [exact Hok|]. split; [exact Hpo|].
  split.
  { destruct (Hcalls [lx_callc lx_main1] lx_cfg lx_main2 StEval [] [] [lx_callc lx_main1] eq_refl) as [_ Hrun].
    destruct (lx_root_analysis lx_cfg lx_main2 (run_calls sx_H None [lx_callc lx_main1] st_empty)) as (x & _ & Ha); [auto|].
    exact (Hrun _ _ [] Ha eq_refl eq_refl). }
  split.
  { destruct (Hcalls [lx_callc lx_main1; lx_callc lx_main2] lx_cfg lx_main1 StEval [] [] [] eq_refl) as [_ Hrun].
    destruct (lx_root_analysis lx_cfg lx_main1 (run_calls sx_H None [lx_callc lx_main1; lx_callc lx_main2] st_empty)) as (x & _ & Ha); [auto|].
    exact (Hrun _ _ [] Ha eq_refl eq_refl). }
  (* the plain run of main2 reads '/d' after its producer has set it: the store it starts from is not evaluated *)
  split; [generalize (kept0 (run_calls sx_H None [lx_callc lx_main1] st_empty)); intros k; reflexivity|].
  (* the history, call by call: the analysis of each call is [lx_analysis], the rest evaluates without a digest *)
  unfold lx_history, lx_callc. cbn [run_calls do_call].
  rewrite !(lx_call_after lx_main1 lx_fi1), (lx_call_after lx_main2 lx_fi2) by (cbn; auto).
  vm_compute. reflexivity.
Qed.
