(* Theorems about dds.load (C09): resolution at analysis time, rejection of read-before-produce, and what a load reads
   at run time. *)
From Coq Require Import List Ascii String ZArith NArith Bool.
From DDS Require Import Base.Bytes Base.BytesFacts L0_Hash.PyVal L0_Hash.DdsHash L1_Args.ArgCtx L3_Sig.Program L3_Sig.Sig
     L3_Sig.SigProofs L4_Eval.Stages L4_Eval.DdsEval L4_Eval.EvalProofs.
Import ListNotations.

Section Analysis.
  Variable H : bytes -> bytes.
  Variable mx : option N.

  (* a load of a path that nothing has produced so far (not in the store, not earlier in this evaluation) rejects the
     evaluation with the DDS error LOAD_BEFORE_STORE, wherever the load is placed *)
  Theorem load_unresolved_rejected : forall p lines isig inters loads R,
    rlookup p R = None ->
    ana_step H mx (SLoad p) lines isig (inters, loads, R) = inl (ErrLoadBeforeStore p).
  Proof. intros p lines isig inters loads R Hr. cbn [ana_step]. rewrite Hr. reflexivity. Qed.

  (* a resolved load records the signature found at the path; it becomes part of the signature of the function
     (dep_<path>) and of the context of every later call in the body (function_deps_hash) *)
  Theorem load_resolved_recorded : forall p sg lines isig inters loads R,
    rlookup p R = Some sg ->
    ana_step H mx (SLoad p) lines isig (inters, loads, R) = inr (inters, rupdate p sg loads, R).
  Proof. intros p sg lines isig inters loads R Hr. cbn [ana_step]. rewrite Hr. reflexivity. Qed.

  Lemma rlookup_rupdate_same : forall p s R, rlookup p (rupdate p s R) = Some s.
  Proof.
    intros p s R. induction R as [|[k v] t IH]; cbn [rupdate rlookup].
    - rewrite bytes_eqb_refl. reflexivity.
    - destruct (bytes_eqb p k) eqn:E; cbn [rlookup]; rewrite E; auto.
  Qed.

  (* a path kept with dds.keep is registered with the signature of the kept node: a later load in the same evaluation
     resolves to it (before fix 44b870d only data functions were registered) *)
  Theorem keep_registers_path : forall l e p g pos kw lines isig inters loads R inters' loads' R',
    ana_step H mx (SKeep l e p g pos kw) lines isig (inters, loads, R) = inr (inters', loads', R') ->
    exists x, inters' = inters ++ [x] /\ fi_path x = Some p /\ rlookup p R' = Some (fi_sig x).
  Proof.
    intros l e p g pos kw lines isig inters loads R inters' loads' R' Hs.
    rewrite ana_step_SKeep in Hs. unfold call_g in Hs.
    destruct (call_ctx _ _ _ _ _ _ _ _) as [er|c]; [discriminate|].
    destruct (arg_ctx_ast _ _ _ _ _ _) as [er|named]; [discriminate|].
    destruct (ana H mx g _ R) as [er|[[s0 p0 n0 a0 l0 c0] R1]]; [discriminate|].
    injection Hs as <- <- <-. eexists. repeat split. apply rlookup_rupdate_same.
  Qed.

  Theorem data_function_registers_path : forall name tag raises lines params p b r A R x R',
    ana H mx (Fn name tag raises lines params (Some p) false (BCons b r)) A R = inr (x, R') ->
    rlookup p R' = Some (fi_sig x).
  Proof.
    intros name tag raises lines params p b r A R x R' Ha. rewrite ana_eq in Ha. unfold fin_fun in Ha.
    destruct (ana_body H mx b name lines (Some p) A R) as [er|[y R1]]; [discriminate|].
    inversion Ha; subst. apply rlookup_rupdate_same.
  Qed.

  (* a load of a path that is neither produced by the evaluation nor committed in the store rejects the evaluation
     (DDSException of the store) before anything runs *)
  Theorem never_produced_rejected : forall c f sty pos kw s named,
    arg_ctx_rt H mx (fn_params f) 0 pos kw = inr named ->
    fetch_refs (s_paths s) (loads_to_check c f) = None ->
    analysis H mx c f sty pos kw s = inl (DdsErr "NONE").
  Proof. intros c f sty pos kw s named Ha Hf. unfold analysis. rewrite Ha, Hf. reflexivity. Qed.

  Lemma fetch_refs_none : forall paths ps p, In p ps -> blookup p paths = None -> fetch_refs paths ps = None.
  Proof.
    intros paths ps p. induction ps as [|q r IH]; intros Hin Hb; [contradiction|].
    cbn [fetch_refs]. destruct Hin as [->|Hin].
    - rewrite Hb. reflexivity.
    - rewrite (IH Hin Hb). destruct (blookup q paths); reflexivity.
  Qed.
End Analysis.

(* inside an evaluation a load of a path produced by that evaluation reads the blob of the requested key (the value the
   keep returned), not the previously committed content of the path *)
Theorem load_in_eval_reads_requested : forall sp p key v en s,
  blookup p sp = Some key -> blookup key (s_blobs s) = Some v ->
  exec_step (Dds sp) (SLoad p) en s = (inr (add_local en v), s).
Proof. intros sp p key v en s Hk Hv. cbn [exec_step]. rewrite Hk, Hv. reflexivity. Qed.

Theorem load_other_reads_committed : forall sp p key v en s,
  blookup p sp = None -> blookup p (s_paths s) = Some key -> blookup key (s_blobs s) = Some v ->
  exec_step (Dds sp) (SLoad p) en s = (inr (add_local en v), s).
Proof. intros sp p key v en s Hn Hk Hv. cbn [exec_step]. rewrite Hn, Hk, Hv. reflexivity. Qed.

Theorem keep_then_load_same_value : forall sp l e p g pos kw en s en1 s1,
  exec_step (Dds sp) (SKeep l e p g pos kw) en s = (inr en1, s1) ->
  exists v, e_locals en1 = e_locals en ++ [v] /\
            exec_step (Dds sp) (SLoad p) en1 s1 = (inr (add_local en1 v), s1).
Proof.
  intros sp l e p g pos kw en s en1 s1 Hk. cbn [exec_step] in Hk.
  destruct (bind_args _ _ _ _) as [pv|]; [|discriminate].
  destruct (blookup p sp) as [key|] eqn:Hp; [|discriminate].
  (* served from the store or just computed and stored, the value is the blob of the requested key *)
  assert (Hv : exists v, en1 = add_local en v /\ blookup key (s_blobs s1) = Some v).
  { destruct (blookup key (s_blobs s)) as [v|] eqn:Hb; [injection Hk as <- <-; eauto|].
    destruct (exec_fn (Dds sp) g pv s) as [[v| | |] s']; try discriminate.
    injection Hk as <- <-. exists v. split; [reflexivity|apply blookup_bupdate_same]. }
  destruct Hv as (v & -> & Hv). exists v. split; [reflexivity|].
  exact (load_in_eval_reads_requested sp p key v _ _ Hp Hv).
Qed.

(* outside an evaluation (reference semantics): a load returns the value most recently kept at the path *)
Theorem plain_load_latest : forall p v en s,
  blookup p (s_kept s) = Some v -> exec_step Plain (SLoad p) en s = (inr (add_local en v), s).
Proof. intros p v en s Hk. cbn [exec_step]. rewrite Hk. reflexivity. Qed.
