(* Closed universes: what the examples that close Soundness.v and SoundnessLoad.v use to instantiate the universe
   hypotheses on finitely many concrete programs.  Boolean checks with their soundness lemmas, run once by evaluation (line
   hashing injective on the prefixes of the texts, no two equal rendered signatures), and lemmas that name a digest instead
   of evaluating it, so that each digest is evaluated in one place.
   Builds on the content analysis of L3_Sig/SigTreeProofs.v and on EvalProofs.v, on none of the Soundness files. *)
From Coq Require Import List Ascii Arith Bool Lia.
From DDS Require Import Base.Bytes Base.BytesFacts L0_Hash.PyVal L0_Hash.DdsHash L3_Sig.Program L3_Sig.Sig L3_Sig.SigTree L3_Sig.SigTreeProofs
     L4_Eval.Stages L4_Eval.DdsEval L4_Eval.EvalProofs.
Import ListNotations.

Definition lines_eqb (a b : list bytes) : bool := if list_eq_dec (list_eq_dec ascii_dec) a b then true else false.
Lemma lines_eqb_true : forall a b, lines_eqb a b = true -> a = b.
Proof. intros a b Hab. unfold lines_eqb in Hab. destruct (list_eq_dec (list_eq_dec ascii_dec) a b); [assumption|discriminate Hab]. Qed.

(* the digest behind a successful hash: the digests recorded in a content are [hash_of (hl ..)] of the lines and
   [hash_of (hv ..)] of the values they stand for, whatever they evaluate to *)
Definition hash_of (r : hres) : bytes := match r with HOk h => h | _ => [] end.

Lemma clines_hash_of : forall hl ls ph, clines hl ls = inr ph -> ph = hash_of (hl ls).
Proof. intros hl ls ph E. unfold clines in E. destruct (hl ls); try discriminate E. injection E as <-. reflexivity. Qed.

Lemma cvars_hash_of : forall hv vars vs,
  cvars hv vars = inr vs -> vs = map (fun nv => (fst nv, hash_of (hv (snd nv)))) vars.
Proof.
  induction vars as [|[n v] r IH]; intros vs E; cbn [cvars] in E.
  - injection E as <-. reflexivity.
  - cbn [map fst snd]. destruct (hv v); try discriminate E. destruct (cvars hv r) as [e|l]; [discriminate E|].
    injection E as <-. rewrite (IH l eq_refl). reflexivity.
Qed.

(* the digest of a text is the digest of the joined digests of its lines *)
Lemma hl0_lines : forall H ls, hl0 H None ls = HOk (hash_strs H ls).
Proof.
  intros H ls. unfold hl0, hash_strs. cbn [dds_hash]. unfold with_len, check_len.
  assert (E : seq_res (map (dds_hash H None) (map VStr ls)) = inr (map H ls)).
  { induction ls as [|l r IH]; [reflexivity|]. cbn [map seq_res dds_hash]. rewrite IH. reflexivity. }
  rewrite E. reflexivity.
Qed.

(* [hl0 H None] is injective on the prefixes of the texts [ts].  The lines of a text are hashed once, a prefix of n lines is
   hashed from the first n of those digests, and the table of all prefixes is compared pairwise: comparing
   [hl0 H None a] with [hl0 H None b] for every pair would hash every line of every prefix twice per pair. *)
Definition prefix_table (H : bytes -> bytes) (t : list bytes) : list (list bytes * bytes) :=
  let hs := map H t in map (fun m => (firstn m t, hash_join H (firstn m hs))) (seq 0 (S (List.length t))).
Definition hl_inj_onb (H : bytes -> bytes) (ts : list (list bytes)) : bool :=
  let tb := flat_map (prefix_table H) ts in
  forallb (fun a => forallb (fun b => if bytes_eqb (snd a) (snd b) then lines_eqb (fst a) (fst b) else true) tb) tb.

Lemma prefix_table_in : forall H t n, In (firstn n t, hash_strs H (firstn n t)) (prefix_table H t).
Proof.
  intros H t n. unfold prefix_table, hash_strs. rewrite <- firstn_map.
  assert (E : exists m, m <= List.length t /\ firstn n t = firstn m t /\ firstn n (map H t) = firstn m (map H t)).
  { destruct (Nat.le_gt_cases n (List.length t)); [exists n; auto|]. exists (List.length t).
    split; [lia|]. rewrite !(firstn_all2 (n:=n)) by (rewrite ?map_length; lia).
    split; [symmetry; apply firstn_all|]. rewrite <- (map_length H t). symmetry. apply firstn_all. }
  destruct E as (m & Hm & -> & ->). apply (in_map (fun m => (firstn m t, hash_join H (firstn m (map H t))))), in_seq. lia.
Qed.

Lemma hl_inj_on_prefixes : forall H ts, hl_inj_onb H ts = true ->
  forall l l' n n' h, In l ts -> In l' ts ->
  hl0 H None (firstn n l) = HOk h -> hl0 H None (firstn n' l') = HOk h -> firstn n l = firstn n' l'.
Proof.
  intros H ts Hc l l' n n' h Hl Hl' E E'. rewrite hl0_lines in E, E'. injection E as <-. unfold hl_inj_onb in Hc.
  rewrite forallb_forall in Hc.
  assert (Hin : forall l0 n0, In l0 ts -> In (firstn n0 l0, hash_strs H (firstn n0 l0)) (flat_map (prefix_table H) ts))
    by (intros l0 n0 H0; apply in_flat_map; exists l0; split; [exact H0|apply prefix_table_in]).
  specialize (Hc _ (Hin l n Hl)). rewrite forallb_forall in Hc. specialize (Hc _ (Hin l' n' Hl')).
  cbn [fst snd] in Hc. injection E' as E'. rewrite E', bytes_eqb_refl in Hc. apply lines_eqb_true. exact Hc.
Qed.

Fixpoint nodupb (l : list bytes) : bool :=
  match l with [] => true | x :: r => negb (existsb (bytes_eqb x) r) && nodupb r end.
Lemma nodupb_inj : forall (A : Type) (f : A -> bytes) l, nodupb (map f l) = true ->
  forall a b, In a l -> In b l -> f a = f b -> a = b.
Proof.
  intros A f. induction l as [|x r IH]; intros Hn a b Ha Hb Hab; [destruct Ha|].
  cbn [map nodupb] in Hn. apply andb_true_iff in Hn. destruct Hn as [Hx Hr]. apply negb_true_iff in Hx.
  assert (Hnot : forall y, In y r -> f x <> f y).
  { intros y Hy Heq. assert (existsb (bytes_eqb (f x)) (map f r) = true); [|congruence].
    apply existsb_exists. exists (f y). split; [apply in_map; exact Hy|rewrite Heq; apply bytes_eqb_refl]. }
  destruct Ha as [<-|Ha]; destruct Hb as [<-|Hb].
  - reflexivity.
  - exfalso. exact (Hnot b Hb Hab).
  - exfalso. exact (Hnot a Ha (eq_sym Hab)).
  - exact (IH Hr a b Ha Hb Hab).
Qed.

Definition sfi_of (r : aerr + sfi * sresolved) : option sfi := match r with inr (x, _) => Some x | inl _ => None end.
(* the signature terms of a node and of the nodes directly below it, and what they render to *)
Definition sfi_sigs (X : sfi) : list dg := sfi_sig X :: map sfi_sig (sfi_children X).
Definition fi_sigs (x : fi) : list bytes := fi_sig x :: map fi_sig (fi_children x).
Lemma render_sfi_sigs : forall H X, map (render H) (sfi_sigs X) = fi_sigs (render_sfi H X).
Proof.
  intros H [s p n a l ch]. unfold sfi_sigs, fi_sigs. cbn [render_sfi sfi_sig sfi_children fi_sig fi_children map]. f_equal.
  rewrite !map_map. apply map_ext. intros [s' p' n' a' l' ch']. reflexivity.
Qed.

Lemma Forall2_In_l : forall (A B : Type) (P : A -> B -> Prop) l l' a, Forall2 P l l' -> In a l -> exists b, In b l' /\ P a b.
Proof.
  intros A B P l l' a HF. induction HF as [|x y l l' Hxy _ IH]; intros Hin; [destruct Hin|].
  destruct Hin as [<-|Hin]; [exists y; split; [left; reflexivity|exact Hxy]|].
  destruct (IH Hin) as (b & Hb & Hab). exists b. split; [right; exact Hb|exact Hab].
Qed.

(* a call without arguments once its analysis is known: served from the store, or executed and committed *)
Definition call_after (c : config) (f : fn) (x : fi) (s : state) : outcome * state :=
  match blookup (fi_sig x) (s_blobs s) with
  | Some v => (Ret v, commit c (all_store_paths x) s)
  | None => run_root c f StEval (all_store_paths x) [] s
  end.
Lemma dds_call_after : forall H mx c f x s,
  analysis H mx c f StEval [] [] s = inr (x, all_store_paths x) -> has_stage Eval (c_stages c) = true -> fn_params f = [] ->
  dds_call H mx c f StEval [] [] s = call_after c f x s.
Proof. intros H mx c f x s Ha He Hp. rewrite dds_call_eq, Ha, He, Hp. reflexivity. Qed.
