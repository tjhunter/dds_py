(* What the symbolic signature of SigTree.v says about a node (DESIGN.md 4.4, L3).
   [content] describes explicitly what the signature of a node is meant to depend on, [enc] is the term that the
   analysis builds for a content, and [cana] computes the content of a node from the program by the same recursion as
   [sana].  [sana] computes [enc] of that content ([sana_cana]).  [enc] is injective ([enc_injective], [sig_injective]):
   a term is a free combination of keyed entries, and the keys of Sig.v fall into families recognised by their constant
   prefixes (computed from Extracted/ConstSig.v), with one exception that is recorded: k_arg "context" = k_arg_context.
   The same holds up to the order of the entries of every combination, which the XOR-fold does not observe
   ([sig_injective_perm]); the interactions cannot be permuted because their index is part of the key.
   Rendering [sana] with a digest function H gives [ana] of Sig.v ([sana_faithful]). *)
From Coq Require Import List Ascii String ZArith NArith Bool Lia Permutation.
From DDS Require Import Base.Bytes Extracted.ConstHash Extracted.ConstSig L0_Hash.PyVal L0_Hash.DdsHash L0_Hash.CommutProofs
     L1_Args.ArgCtx L3_Sig.Program L3_Sig.Sig L3_Sig.SigProofs L3_Sig.SigTree.
Import ListNotations.

Fixpoint prefixb (p b : bytes) : bool :=
  match p with
  | [] => true
  | c :: p' => match b with [] => false | d :: b' => if Ascii.eqb c d then prefixb p' b' else false end
  end.

Inductive kfam := FArg | FDep | FFunDep | FExtDep | FExtVar | FBody | FInput | FInter | FDeps | FOther.

Definition kfam_eq_dec : forall a b : kfam, {a = b} + {a <> b}.
Proof. decide equality. Defined.

Definition fam (k : bytes) : kfam :=
  if prefixb (bs c_key_arg_prefix) k then FArg
  else if prefixb (bs c_key_dep_prefix) k then FDep
  else if prefixb (bs c_key_fun_dep_prefix) k then FFunDep
  else if prefixb (bs c_key_ext_dep_prefix) k then FExtDep
  else if prefixb (bs c_key_ext_var_prefix) k then FExtVar
  else if bytes_eqb k k_body_sig then FBody
  else if bytes_eqb k k_fun_input then FInput
  else if bytes_eqb k k_fun_inter then FInter
  else if bytes_eqb k k_fun_deps then FDeps
  else FOther.

(* by computation on the constants regenerated from the source: these fail to compile if a prefix of one family
   becomes a prefix of a key of another family *)
Lemma fam_arg : forall n, fam (k_arg n) = FArg.            Proof. reflexivity. Qed.
Lemma fam_dep : forall p, fam (k_dep p) = FDep.            Proof. reflexivity. Qed.
Lemma fam_fun_dep : forall i, fam (k_fun_dep i) = FFunDep. Proof. reflexivity. Qed.
Lemma fam_ext_dep : forall n, fam (k_ext_dep n) = FExtDep. Proof. reflexivity. Qed.
Lemma fam_ext_var : forall n, fam (k_ext_var n) = FExtVar. Proof. reflexivity. Qed.
Lemma fam_body_sig : fam k_body_sig = FBody.               Proof. vm_compute. reflexivity. Qed.
Lemma fam_fun_input : fam k_fun_input = FInput.            Proof. vm_compute. reflexivity. Qed.
Lemma fam_fun_inter : fam k_fun_inter = FInter.            Proof. vm_compute. reflexivity. Qed.
Lemma fam_fun_deps : fam k_fun_deps = FDeps.               Proof. vm_compute. reflexivity. Qed.
(* FINDING: the key of the call-site context is a key of the argument family *)
Lemma fam_arg_context : fam k_arg_context = FArg.          Proof. vm_compute. reflexivity. Qed.
Lemma k_arg_context_is_k_arg : k_arg_context = k_arg (bs "context").
Proof. vm_compute. reflexivity. Qed.

Lemma k_arg_inj : forall a b, k_arg a = k_arg b -> a = b.
Proof. intros a b. apply app_inv_head. Qed.
Lemma k_dep_inj : forall a b, k_dep a = k_dep b -> a = b.
Proof. intros a b. apply app_inv_head. Qed.
Lemma k_ext_dep_inj : forall a b, k_ext_dep a = k_ext_dep b -> a = b.
Proof. intros a b. apply app_inv_head. Qed.
Lemma k_ext_var_inj : forall a b, k_ext_var a = k_ext_var b -> a = b.
Proof. intros a b. apply app_inv_head. Qed.

(* dec_pos_fuel is CommutProofs.render_fuel in base 10 *)
Lemma dec_N_value : forall n, value 10 (fun c => N_of_ascii c - 48)%N (dec_N n) = n.
Proof.
  apply (value_render 10 (fun d => ascii_of_N (48 + d))); [lia|].
  intros d Hd. rewrite N_ascii_embedding; lia.
Qed.

Theorem dec_nat_inj : forall a b, dec_nat a = dec_nat b -> a = b.
Proof.
  intros a b Heq. apply Nnat.Nat2N.inj.
  rewrite <- (dec_N_value (N.of_nat a)), <- (dec_N_value (N.of_nat b)). exact (f_equal _ Heq).
Qed.
Lemma k_fun_dep_inj : forall a b, k_fun_dep a = k_fun_dep b -> a = b.
Proof. intros a b H. apply app_inv_head in H. apply dec_nat_inj. exact H. Qed.

Theorem key_disjoint : forall n p i m v,
  let ks := [k_arg n; k_dep p; k_fun_dep i; k_ext_dep m; k_ext_var v; k_body_sig; k_fun_input; k_fun_inter; k_fun_deps] in
  NoDup (map fam ks) /\
  (forall j1 j2 a b, nth_error ks j1 = Some a -> nth_error ks j2 = Some b -> a = b -> j1 = j2).
Proof.
  intros n p i m v ks.
  assert (Hnd : NoDup (map fam ks)).
  { unfold ks. cbn [map]. rewrite fam_arg, fam_dep, fam_fun_dep, fam_ext_dep, fam_ext_var, fam_body_sig, fam_fun_input,
      fam_fun_inter, fam_fun_deps.
    repeat (constructor; [cbn [In]; intuition discriminate|]). constructor. }
  split; [exact Hnd|].
  intros j1 j2 a b H1 H2 <-.
  apply (f_equal (option_map fam)) in H1, H2. rewrite <- nth_error_map in H1, H2.
  apply (proj1 (NoDup_nth_error (map fam ks)) Hnd).
  - apply nth_error_Some. rewrite H1. discriminate.
  - rewrite H1, H2. reflexivity.
Qed.

Definition all_fam (a : kfam) (l : list (bytes * dg)) : Prop := Forall (fun kv => fam (fst kv) = a) l.

Lemma all_fam_one : forall a k v, fam k = a -> all_fam a [(k, v)].
Proof. intros a k v Hk. constructor; [exact Hk|constructor]. Qed.

Definition pick (a : kfam) (l : list (bytes * dg)) : list (bytes * dg) :=
  filter (fun kv => if kfam_eq_dec (fam (fst kv)) a then true else false) l.

Lemma pick_app : forall a l r, pick a (l ++ r) = pick a l ++ pick a r.
Proof. intros a l r. apply filter_app. Qed.

Lemma pick_fam : forall a b l, all_fam b l -> pick a l = if kfam_eq_dec b a then l else [].
Proof.
  intros a b l Hl. induction Hl as [|kv l Hk _ IH]; [destruct (kfam_eq_dec b a); reflexivity|].
  unfold pick in *. cbn [filter]. rewrite Hk, IH. destruct (kfam_eq_dec b a); reflexivity.
Qed.

(* Everything the signature of a node is meant to depend on.  Hashes of values / of source lines are recorded as
   the bytes that [hv] / [hl] returned: no injectivity of the value hash is assumed.
   A class is a node whose children are its methods (no arguments, loads, external names or variables of its own);
   a method is a node with the lines and the arguments of its class. *)
Inductive content :=
| Content (lines : bytes)                   (* hash of the source lines *)
          (args : arg_content)
          (loads : list (bytes * dg))       (* dds.load: path, signature found there *)
          (children : list content)         (* the interactions, in order *)
          (exts : list (bytes * bytes))     (* external objects: local name, canonical name *)
          (vars : list (bytes * bytes))     (* tracked variables: local name, hash of the value *)
with arg_content :=
| ArgsKnown (l : list (bytes * bytes))      (* every parameter is bound to a hashable literal / default: name, hash *)
| ArgsFromContext (site : content).         (* some argument is only known at run time: the call site, i.e. the
                                               enclosing function UP TO the call (lines = hash of the source prefix,
                                               its own arguments / external names / variables, the interactions and
                                               the loads that precede the call) *)

Section ContentInd.
  Variable P : content -> Prop.
  Variable Q : arg_content -> Prop.
  Hypothesis HC : forall lh a loads ch exts vars, Q a -> Forall P ch -> P (Content lh a loads ch exts vars).
  Hypothesis HK : forall l, Q (ArgsKnown l).
  Hypothesis HX : forall c, P c -> Q (ArgsFromContext c).
  Fixpoint content_ind' (c : content) : P c :=
    match c with
    | Content lh a loads ch exts vars =>
      HC lh a loads ch exts vars (args_ind' a)
         ((fix go (l : list content) : Forall P l :=
             match l with
             | [] => Forall_nil P
             | y :: t => Forall_cons y (content_ind' y) (go t)
             end) ch)
    end
  with args_ind' (a : arg_content) : Q a :=
    match a with
    | ArgsKnown l => HK l
    | ArgsFromContext c => HX c (content_ind' c)
    end.
End ContentInd.

Fixpoint sigl_from (i : nat) (l : list dg) : list (bytes * dg) :=
  match l with [] => [] | s :: r => (k_fun_dep i, s) :: sigl_from (S i) r end.
Definition enc_vars (vars : list (bytes * bytes)) : list (bytes * dg) :=
  map (fun nh => (k_ext_var (fst nh), DBytes (snd nh))) vars.
Definition enc_known (l : list (bytes * bytes)) : list (bytes * dg) :=
  map (fun nh => (k_arg (fst nh), DBytes (snd nh))) l.
Definition opt_entry (k : bytes) (l : list (bytes * dg)) : list (bytes * dg) :=
  match l with [] => [] | _ :: _ => [(k, DComb l)] end.
Definition enc_input (ap ep vp : list (bytes * dg)) : dg :=
  match ap ++ ep ++ vp with [] => DHash [] | (_ :: _) as l => DComb l end.

(* [enc c]: the signature term of a node of content c;  [enc_site c]: the context term of a call site *)
Fixpoint enc (c : content) : dg :=
  match c with
  | Content lh a loads ch exts vars =>
    DComb ([(k_body_sig, DBytes lh)] ++ enc_args a ++ sdep_pairs loads ++ sigl_from 0 (map enc ch)
           ++ sextpairs exts ++ enc_vars vars)
  end
with enc_site (c : content) : dg :=
  match c with
  | Content lh a loads ch exts vars =>
    DComb ([(k_body_sig, DBytes lh); (k_fun_input, enc_input (enc_args a) (sextpairs exts) (enc_vars vars))]
           ++ opt_entry k_fun_inter (sigl_from 0 (map enc ch)) ++ opt_entry k_fun_deps (sdep_pairs loads))
  end
with enc_args (a : arg_content) : list (bytes * dg) :=
  match a with
  | ArgsKnown l => enc_known l
  | ArgsFromContext c => [(k_arg_context, enc_site c)]
  end.

Lemma enc_eq : forall lh a loads ch exts vars,
  enc (Content lh a loads ch exts vars) =
  DComb ([(k_body_sig, DBytes lh)] ++ enc_args a ++ sdep_pairs loads ++ sigl_from 0 (map enc ch)
         ++ sextpairs exts ++ enc_vars vars).
Proof. reflexivity. Qed.

Lemma enc_site_eq : forall lh a loads ch exts vars,
  enc_site (Content lh a loads ch exts vars) =
  DComb ([(k_body_sig, DBytes lh); (k_fun_input, enc_input (enc_args a) (sextpairs exts) (enc_vars vars))]
         ++ opt_entry k_fun_inter (sigl_from 0 (map enc ch)) ++ opt_entry k_fun_deps (sdep_pairs loads)).
Proof. reflexivity. Qed.

Lemma enc_args_known : forall l, enc_args (ArgsKnown l) = enc_known l.
Proof. reflexivity. Qed.
Lemma enc_args_ctx : forall c, enc_args (ArgsFromContext c) = [(k_arg_context, enc_site c)].
Proof. reflexivity. Qed.

Lemma all_fam_map : forall (A : Type) (f : A -> bytes * dg) a l, (forall x, fam (fst (f x)) = a) -> all_fam a (map f l).
Proof. intros A f a l Hf. apply Forall_map, Forall_forall. intros x _. apply Hf. Qed.
Lemma all_fam_args : forall a, all_fam FArg (enc_args a).
Proof. intros [l|c]; [apply all_fam_map; intros x; apply fam_arg|apply all_fam_one, fam_arg_context]. Qed.
Lemma all_fam_deps : forall l, all_fam FDep (sdep_pairs l).
Proof. intros l. apply all_fam_map. intros x. apply fam_dep. Qed.
Lemma all_fam_sigl : forall l i, all_fam FFunDep (sigl_from i l).
Proof. induction l as [|s l IH]; intros i; cbn [sigl_from]; constructor; [apply fam_fun_dep|apply IH]. Qed.
Lemma all_fam_exts : forall l, all_fam FExtDep (sextpairs l).
Proof. intros l. apply all_fam_map. intros x. apply fam_ext_dep. Qed.
Lemma all_fam_vars : forall l, all_fam FExtVar (enc_vars l).
Proof. intros l. apply all_fam_map. intros x. apply fam_ext_var. Qed.
Lemma all_fam_opt : forall a k l, fam k = a -> all_fam a (opt_entry k l).
Proof. intros a k [|x l] Hk; [constructor|apply all_fam_one, Hk]. Qed.

Lemma pick_enc : forall lh a loads sigs exts vars f,
  pick f ([(k_body_sig, DBytes lh)] ++ enc_args a ++ sdep_pairs loads ++ sigl_from 0 sigs ++ sextpairs exts ++ enc_vars vars) =
  match f with
  | FBody => [(k_body_sig, DBytes lh)] | FArg => enc_args a | FDep => sdep_pairs loads | FFunDep => sigl_from 0 sigs
  | FExtDep => sextpairs exts | FExtVar => enc_vars vars | _ => []
  end.
Proof.
  intros lh a loads sigs exts vars f.
  rewrite !pick_app, (pick_fam f _ _ (all_fam_one _ _ _ fam_body_sig)), (pick_fam f _ _ (all_fam_args a)), (pick_fam f _ _ (all_fam_deps loads)),
    (pick_fam f _ _ (all_fam_sigl sigs 0)), (pick_fam f _ _ (all_fam_exts exts)), (pick_fam f _ _ (all_fam_vars vars)).
  destruct f; cbn; rewrite ?app_nil_r; reflexivity.
Qed.

Lemma pick_site : forall lh isig sigs deps f,
  pick f ([(k_body_sig, DBytes lh)] ++ [(k_fun_input, isig)] ++ opt_entry k_fun_inter sigs ++ opt_entry k_fun_deps deps) =
  match f with
  | FBody => [(k_body_sig, DBytes lh)] | FInput => [(k_fun_input, isig)] | FInter => opt_entry k_fun_inter sigs
  | FDeps => opt_entry k_fun_deps deps | _ => []
  end.
Proof.
  intros lh isig sigs deps f.
  rewrite !pick_app, (pick_fam f _ _ (all_fam_one _ _ _ fam_body_sig)), (pick_fam f _ _ (all_fam_one _ _ _ fam_fun_input)),
    (pick_fam f _ _ (all_fam_opt _ _ sigs fam_fun_inter)), (pick_fam f _ _ (all_fam_opt _ _ deps fam_fun_deps)).
  destruct f; cbn; rewrite ?app_nil_r; reflexivity.
Qed.

Lemma pick_input : forall a exts vars f,
  pick f (enc_args a ++ sextpairs exts ++ enc_vars vars) =
  match f with FArg => enc_args a | FExtDep => sextpairs exts | FExtVar => enc_vars vars | _ => [] end.
Proof.
  intros a exts vars f.
  rewrite !pick_app, (pick_fam f _ _ (all_fam_args a)), (pick_fam f _ _ (all_fam_exts exts)), (pick_fam f _ _ (all_fam_vars vars)).
  destruct f; cbn; rewrite ?app_nil_r; reflexivity.
Qed.

Lemma known_entry_inj : forall x y : bytes * bytes, (k_arg (fst x), DBytes (snd x)) = (k_arg (fst y), DBytes (snd y)) -> x = y.
Proof. intros [n h] [n2 h2] E. injection E as -> ->. reflexivity. Qed.
Lemma vars_entry_inj : forall x y : bytes * bytes, (k_ext_var (fst x), DBytes (snd x)) = (k_ext_var (fst y), DBytes (snd y)) -> x = y.
Proof. intros [n h] [n2 h2] E. injection E as -> ->. reflexivity. Qed.
Lemma exts_entry_inj : forall x y : bytes * bytes,
  (k_ext_dep (fst x), DHash (bs "<" ++ snd x ++ bs ">")) = (k_ext_dep (fst y), DHash (bs "<" ++ snd y ++ bs ">")) -> x = y.
Proof.
  intros [n h] [n2 h2] E. injection E as -> Eh. apply app_inv_tail in Eh. cbn [snd] in Eh. congruence.
Qed.

Definition leaf (t : dg) : Prop := match t with DComb _ => False | _ => True end.

(* [enc] and [enc_site] are injective up to any notion [Rd] of "same term" that relates combinations through a relation
   [Rl] of their entry lists which is kept by selecting the entries of a family and relates single entries value by value.
   What is concluded of two contents ([Rc], [Ra], and [RP] for their lists of named leaves) is what [Rl] says of the
   pieces.  Equality, and equality up to the order of the entries, are the two instances. *)
Section EncInj.
  Variable Rd : dg -> dg -> Prop.
  Variable Rl : list (bytes * dg) -> list (bytes * dg) -> Prop.
  Variable RP : forall A : Type, list A -> list A -> Prop.
  Variable Rc : content -> content -> Prop.
  Variable Ra : arg_content -> arg_content -> Prop.
  Hypothesis Rd_comb : forall l t, Rd (DComb l) t -> exists l', t = DComb l' /\ Rl l l'.
  Hypothesis Rd_leaf : forall t t', Rd t t' -> leaf t -> t' = t.
  Hypothesis Rl_nil : Rl [] [].
  Hypothesis Rl_pick : forall f l l', Rl l l' -> Rl (pick f l) (pick f l').
  Hypothesis Rl_length : forall l l', Rl l l' -> List.length l = List.length l'.
  Hypothesis Rl_single : forall k v k' v', Rl [(k, v)] [(k', v')] -> Rd v v'.
  Hypothesis Rl_leaves : forall (A : Type) (f : A -> bytes * dg),
    (forall x y, f x = f y -> x = y) -> (forall x, leaf (snd (f x))) -> forall l l', Rl (map f l) (map f l') -> RP A l l'.
  Hypothesis Rl_deps : forall l l', Rl (sdep_pairs l) (sdep_pairs l') -> Rl l l'.
  Hypothesis Rl_sigl : forall vs vs' i, Rl (sigl_from i vs) (sigl_from i vs') -> Forall2 Rd vs vs'.
  Hypothesis Rc_node : forall lh a a' loads loads' ch ch' exts exts' vars vars',
    Ra a a' -> Rl loads loads' -> Forall2 Rc ch ch' -> RP _ exts exts' -> RP _ vars vars' ->
    Rc (Content lh a loads ch exts vars) (Content lh a' loads' ch' exts' vars').
  Hypothesis Ra_known : forall l l', RP _ l l' -> Ra (ArgsKnown l) (ArgsKnown l').
  Hypothesis Ra_ctx : forall c c', Rc c c' -> Ra (ArgsFromContext c) (ArgsFromContext c').

  Lemma Rl_pieces : forall (P P' : kfam -> list (bytes * dg)) l l',
    (forall f, pick f l = P f) -> (forall f, pick f l' = P' f) -> Rl l l' -> forall f, Rl (P f) (P' f).
  Proof. intros P P' l l' E E' Hl f. rewrite <- E, <- E'. apply Rl_pick, Hl. Qed.

  Lemma Rl_opt_entry : forall k l l', Rl (opt_entry k l) (opt_entry k l') -> Rl l l'.
  Proof.
    intros k [|x l] [|y l'] Hl; cbn [opt_entry] in Hl; [exact Rl_nil|apply Rl_length in Hl; discriminate Hl..|].
    apply Rl_single, Rd_comb in Hl. destruct Hl as (l2 & E & Hl). injection E as <-. exact Hl.
  Qed.

  Lemma Rd_enc_input : forall ap ep vp ap' ep' vp',
    Rd (enc_input ap ep vp) (enc_input ap' ep' vp') -> Rl (ap ++ ep ++ vp) (ap' ++ ep' ++ vp').
  Proof.
    intros ap ep vp ap' ep' vp'. unfold enc_input.
    destruct (ap ++ ep ++ vp) as [|x l]; destruct (ap' ++ ep' ++ vp') as [|y l']; intros Hd.
    - exact Rl_nil.
    - apply Rd_leaf in Hd; [discriminate Hd|exact I].
    - apply Rd_comb in Hd as (l2 & E & _). discriminate E.
    - apply Rd_comb in Hd as (l2 & E & Hl). injection E as <-. exact Hl.
  Qed.

  (* an argument named "context" has the key of the call-site context; the entries still differ: the value of the
     first is a value hash (a leaf), the value of the second is a combination *)
  Lemma known_not_ctx : forall l c,
    ~ Rl (enc_known l) [(k_arg_context, enc_site c)] /\ ~ Rl [(k_arg_context, enc_site c)] (enc_known l).
  Proof.
    intros l [lh a loads ch exts vars]. split; intros Hl; pose proof (Rl_length _ _ Hl) as Hlen;
      (destruct l as [|[n h] [|x l]]; try discriminate Hlen); apply Rl_single in Hl.
    - apply Rd_leaf in Hl; [discriminate Hl|exact I].
    - apply Rd_comb in Hl as (l2 & E & _). discriminate E.
  Qed.

  Definition inj_content (c : content) : Prop :=
    (forall c', Rd (enc c) (enc c') -> Rc c c') /\ (forall c', Rd (enc_site c) (enc_site c') -> Rc c c').
  Definition inj_args (a : arg_content) : Prop := forall a', Rl (enc_args a) (enc_args a') -> Ra a a'.

  Lemma enc_inj : forall c, inj_content c.
  Proof.
    apply (content_ind' inj_content inj_args).
    - (* Content *) intros lh a loads ch exts vars Ha Hch.
      assert (Hch1 : forall ch', Forall2 Rd (map enc ch) (map enc ch') -> Forall2 Rc ch ch').
      { induction Hch as [|c ch [Hc _] _ IH]; intros [|c' ch'] H2; inversion H2; subst; constructor; auto. }
      split; intros [lh' a' loads' ch' exts' vars'] Hd.
      + (* enc *) rewrite !enc_eq in Hd. apply Rd_comb in Hd as (l2 & E & Hl). injection E as <-.
        (* [Hk f]: the entries of family f on the two sides are related; each field of the content is one family *)
        pose proof (Rl_pieces _ _ _ _ (pick_enc _ _ _ _ _ _) (pick_enc _ _ _ _ _ _) Hl) as Hk.
        pose proof (Rd_leaf _ _ (Rl_single _ _ _ _ (Hk FBody)) I) as E. injection E as <-.
        apply Rc_node.
        * (* arguments *) exact (Ha _ (Hk FArg)).
        * (* loads *) exact (Rl_deps _ _ (Hk FDep)).
        * (* children *) exact (Hch1 _ (Rl_sigl _ _ 0 (Hk FFunDep))).
        * (* exts *) exact (Rl_leaves _ _ exts_entry_inj (fun _ => I) _ _ (Hk FExtDep)).
        * (* vars *) exact (Rl_leaves _ _ vars_entry_inj (fun _ => I) _ _ (Hk FExtVar)).
      + (* enc_site *) rewrite !enc_site_eq in Hd. apply Rd_comb in Hd as (l2 & E & Hl). injection E as <-.
        pose proof (Rl_pieces _ _ _ _ (pick_site _ _ _ _) (pick_site _ _ _ _) Hl) as Hk.
        pose proof (Rd_leaf _ _ (Rl_single _ _ _ _ (Hk FBody)) I) as E. injection E as <-.
        (* [Hi f]: the same inside the input signature, which holds the arguments, the exts and the vars *)
        pose proof (Rl_pieces _ _ _ _ (pick_input _ _ _) (pick_input _ _ _) (Rd_enc_input _ _ _ _ _ _ (Rl_single _ _ _ _ (Hk FInput))))
          as Hi.
        apply Rc_node.
        * (* arguments *) exact (Ha _ (Hi FArg)).
        * (* loads *) exact (Rl_deps _ _ (Rl_opt_entry _ _ _ (Hk FDeps))).
        * (* children *) exact (Hch1 _ (Rl_sigl _ _ 0 (Rl_opt_entry _ _ _ (Hk FInter)))).
        * (* exts *) exact (Rl_leaves _ _ exts_entry_inj (fun _ => I) _ _ (Hi FExtDep)).
        * (* vars *) exact (Rl_leaves _ _ vars_entry_inj (fun _ => I) _ _ (Hi FExtVar)).
    - (* ArgsKnown *) intros l [l'|c'] Hl.
      + apply Ra_known. exact (Rl_leaves _ _ known_entry_inj (fun _ => I) _ _ Hl).
      + destruct (proj1 (known_not_ctx _ _) Hl).
    - (* ArgsFromContext *) intros c Hc [l'|c'] Hl.
      + destruct (proj2 (known_not_ctx _ _) Hl).
      + apply Ra_ctx, (proj2 Hc), (Rl_single _ _ _ _ Hl).
  Qed.
End EncInj.

Lemma map_inj : forall (A B : Type) (f : A -> B), (forall x y, f x = f y -> x = y) ->
  forall l l2, map f l = map f l2 -> l = l2.
Proof.
  intros A B f Hf. induction l as [|x l IH]; intros [|y l2] Heq; try discriminate Heq; [reflexivity|].
  injection Heq as H1 H2. f_equal; [apply Hf; exact H1|apply IH; exact H2].
Qed.

Lemma sigl_from_inj : forall l l2 i, sigl_from i l = sigl_from i l2 -> l = l2.
Proof.
  induction l as [|s l IH]; intros [|s2 l2] i Heq; try discriminate Heq; [reflexivity|].
  injection Heq as Hs Hl. f_equal; [exact Hs|exact (IH l2 (S i) Hl)].
Qed.

Lemma enc_injective_all : forall c, (forall c2, enc c = enc c2 -> c = c2) /\ (forall c2, enc_site c = enc_site c2 -> c = c2).
Proof.
  (* every relation of Section EncInj is equality; one bullet per hypothesis of the section, in its order *)
  apply (enc_inj eq eq (fun _ => eq) eq eq).
  - (* Rd_comb *) intros l t <-. exists l. split; reflexivity.
  - (* Rd_leaf *) intros t t' E _. symmetry. exact E.
  - (* Rl_nil *) reflexivity.
  - (* Rl_pick *) intros f l l' ->. reflexivity.
  - (* Rl_length *) intros l l' ->. reflexivity.
  - (* Rl_single *) intros k v k' v' E. injection E as _ E. exact E.
  - (* Rl_leaves *) intros A f Hf _. apply map_inj, Hf.
  - (* Rl_deps *) apply map_inj. intros [p s] [p' s'] E. injection E as -> ->. reflexivity.
  - (* Rl_sigl *) intros vs vs' i E. apply sigl_from_inj in E. subst vs'. induction vs; constructor; auto.
  - (* Rc_node *)
    intros lh a a' loads loads' ch ch' exts exts' vars vars' -> -> Hch -> ->. f_equal. induction Hch; congruence.
  - (* Ra_known *) intros l l' ->. reflexivity.
  - (* Ra_ctx *) intros c c' ->. reflexivity.
Qed.

Theorem enc_injective : forall c c2, enc c = enc c2 -> c = c2.
Proof. intros c. exact (proj1 (enc_injective_all c)). Qed.
Theorem enc_site_injective : forall c c2, enc_site c = enc_site c2 -> c = c2.
Proof. intros c. exact (proj2 (enc_injective_all c)). Qed.

Definition cargctx := (list (bytes * option bytes) * option content)%type.   (* named_args, the call site *)

Definition known_args (named : list (bytes * option bytes)) : list (bytes * bytes) :=
  flat_map (fun nh => match snd nh with Some h => [(fst nh, h)] | None => [] end) named.

Definition cargs (A : cargctx) : aerr + arg_content :=
  let '(named, site) := A in
  if existsb (fun nh => match snd nh with None => true | Some _ => false end) named then
    match site with
    | None => inl ErrAssertCtx
    | Some c => inr (ArgsFromContext c)
    end
  else inr (ArgsKnown (known_args named)).

Definition cst3 := (list content * list (bytes * dg) * sresolved)%type.

Section Content.
  Variable hv : pyval -> hres.
  Variable hl : list bytes -> hres.

  Definition clines (ls : list bytes) : aerr + bytes :=
    match hl ls with HOk h => inr h | e => inl (ErrHash e) end.

  Fixpoint cvars (vars : list (bytes * pyval)) : aerr + list (bytes * bytes) :=
    match vars with
    | [] => inr []
    | (n, v) :: r =>
      match hv v with
      | HOk h => match cvars r with inr l => inr ((n, h) :: l) | inl e => inl e end
      | e => inl (ErrHash e)
      end
    end.

  (* the same recursion as [sana]; the only terms it handles are the signatures registered in / read from the
     resolved references, [enc] of the content of the node that produced them *)
  Fixpoint cana (f : fn) (A : cargctx) (R : sresolved) {struct f} : aerr + (content * sresolved) :=
    match f with
    | Fn name _ _ lines params annot is_class bds =>
      if is_class then
        match cana_bodies bds lines A R with
        | inl e => inl e
        | inr (ms, R') =>
          match clines lines with
          | inl e => inl e
          | inr lh => inr (Content lh (ArgsKnown []) [] ms [] [], R')
          end
        end
      else
        match bds with
        | BCons b _ =>
          match cana_body b lines A R with
          | inl e => inl e
          | inr (c, R') => inr (c, match annot with Some p => srupdate p (enc c) R' | None => R' end)
          end
        | BNil => inl ErrEmpty
        end
    end
  with cana_bodies (bds : bodies) (lines : list bytes) (A : cargctx) (R : sresolved) {struct bds}
       : aerr + (list content * sresolved) :=
    match bds with
    | BNil => inr ([], R)
    | BCons b r =>
      match cana_body b lines A R with
      | inl e => inl e
      | inr (c, R') =>
        match cana_bodies r lines A R' with
        | inl e => inl e
        | inr (cs, R'') => inr (c :: cs, R'')
        end
      end
    end
  with cana_body (b : body) (lines : list bytes) (A : cargctx) (R : sresolved) {struct b} : aerr + (content * sresolved) :=
    match b with
    | Body vars exts sts =>
      match cargs A with
      | inl e => inl e
      | inr a =>
        match cvars vars with
        | inl e => inl e
        | inr vs =>
          match cana_steps sts lines a exts vs ([], [], R) with
          | inl e => inl e
          | inr (ch, loads, R') =>
            match clines lines with
            | inl e => inl e
            | inr lh => inr (Content lh a loads ch exts vs, R')
            end
          end
        end
      end
    end
  with cana_steps (sts : steps) (lines : list bytes) (a : arg_content) (exts vs : list (bytes * bytes)) (acc : cst3)
       {struct sts} : aerr + cst3 :=
    match sts with
    | SNil => inr acc
    | SCons s r =>
      match cana_step s lines a exts vs acc with
      | inl e => inl e
      | inr acc' => cana_steps r lines a exts vs acc'
      end
    end
  with cana_step (s : step) (lines : list bytes) (a : arg_content) (exts vs : list (bytes * bytes)) (acc : cst3)
       {struct s} : aerr + cst3 :=
    let '(ch, loads, R) := acc in
    match s with
    | SLoad p =>
      match srlookup p R with
      | None => inl (ErrLoadBeforeStore p)
      | Some sg => inr (ch, srupdate p sg loads, R)
      end
    | SApply _ => inr acc
    | SCall line eline g args =>
      match clines (firstn (Nat.max (S line) eline) lines) with
      | inl e => inl e
      | inr ph =>
        match scallee_ctx_plain hv g (List.length args) with
        | inl e => inl (ErrArg e)
        | inr named =>
          match cana g (named, Some (Content ph a loads ch exts vs)) R with
          | inl e => inl e
          | inr (c, R') => inr (ch ++ [c], loads, R')
          end
        end
      end
    | SRef line g _ =>
      match clines (firstn (Nat.max (S line) line) lines) with
      | inl e => inl e
      | inr ph =>
        match scallee_ctx_plain hv g 0 with
        | inl e => inl (ErrArg e)
        | inr named =>
          match cana g (named, Some (Content ph a loads ch exts vs)) R with
          | inl e => inl e
          | inr (c, R') => inr (ch ++ [c], loads, R')
          end
        end
      end
    | SKeep line eline p g pos kw =>
      match clines (firstn (Nat.max (S line) eline) lines) with
      | inl e => inl e
      | inr ph =>
        match sarg_ctx_ast hv (fn_params g) 0 (map snd pos) (map (fun nk => (fst nk, snd (snd nk))) kw) with
        | inl e => inl (ErrArg e)
        | inr named =>
          match cana g (named, Some (Content ph a loads ch exts vs)) R with
          | inl e => inl e
          | inr (c, R') => inr (ch ++ [c], loads, srupdate p (enc c) R')
          end
        end
      end
    end.

  (* the content of the node analysed by [sana hv hl f (named, option_map enc_site site) R] *)
  Definition content_of (f : fn) (A : cargctx) (R : sresolved) : option content :=
    match cana f A R with inr (c, _) => Some c | inl _ => None end.

  Definition skey (A : cargctx) : sargctx := (fst A, option_map enc_site (snd A)).

  Definition agree (r : aerr + (sfi * sresolved)) (r' : aerr + (content * sresolved)) : Prop :=
    match r, r' with
    | inl e, inl e' => e = e'
    | inr (x, R), inr (c, R') => sfi_sig x = enc c /\ R = R'
    | _, _ => False
    end.
  Definition agree_l (r : aerr + (list sfi * sresolved)) (r' : aerr + (list content * sresolved)) : Prop :=
    match r, r' with
    | inl e, inl e' => e = e'
    | inr (xs, R), inr (cs, R') => map sfi_sig xs = map enc cs /\ R = R'
    | _, _ => False
    end.
  Definition agree3 (r : aerr + sst3) (r' : aerr + cst3) : Prop :=
    match r, r' with
    | inl e, inl e' => e = e'
    | inr (xs, l, R), inr (cs, l', R') => map sfi_sig xs = map enc cs /\ l = l' /\ R = R'
    | _, _ => False
    end.

  Lemma shash_lines_clines : forall ls,
    shash_lines hl ls = match clines ls with inl e => inl e | inr h => inr (DBytes h) end.
  Proof. intros ls. unfold shash_lines, clines. destruct (hl ls); reflexivity. Qed.

  Lemma enc_known_flat : forall named,
    flat_map (fun nh : bytes * option bytes => match snd nh with Some h => [(k_arg (fst nh), DBytes h)] | None => [] end) named
    = enc_known (known_args named).
  Proof.
    induction named as [|[n [h|]] t IH]; [reflexivity| |].
    - cbn [flat_map known_args snd fst app]. unfold enc_known in *. cbn [map fst snd]. f_equal. exact IH.
    - cbn [flat_map known_args snd fst app]. exact IH.
  Qed.

  Lemma sargpairs_cargs : forall A,
    sargpairs (skey A) = match cargs A with inl e => inl e | inr a => inr (enc_args a) end.
  Proof.
    intros [named site]. unfold sargpairs, cargs, skey. cbn [fst snd].
    destruct (existsb _ named).
    - destruct site as [c|]; reflexivity.
    - rewrite enc_known_flat. reflexivity.
  Qed.

  Lemma svarpairs_cvars : forall vars,
    svarpairs hv vars = match cvars vars with inl e => inl e | inr vs => inr (enc_vars vs) end.
  Proof.
    induction vars as [|[n v] r IH]; [reflexivity|].
    cbn [svarpairs cvars]. destruct (hv v); try reflexivity.
    rewrite IH. destruct (cvars r); reflexivity.
  Qed.

  Lemma input_sig_enc : forall ap ep vp,
    match SX (ap ++ ep ++ vp) with Some s => s | None => sempty_list_hash end = enc_input ap ep vp.
  Proof. intros ap ep vp. unfold enc_input, SX. destruct (ap ++ ep ++ vp); reflexivity. Qed.

  Lemma sfis_siglist_from_sigl : forall l i, sfis_siglist_from i l = sigl_from i (map sfi_sig l).
  Proof. induction l as [|x l IH]; intros i; [reflexivity|]. cbn [sfis_siglist_from map sigl_from]. rewrite IH. reflexivity. Qed.
  Lemma sfis_siglist_sigl : forall l, sfis_siglist l = sigl_from 0 (map sfi_sig l).
  Proof. intros l. apply sfis_siglist_from_sigl. Qed.

  Lemma SX_opt_entry : forall k l, match SX l with Some h => [(k, h)] | None => [] end = opt_entry k l.
  Proof. intros k [|x l]; reflexivity. Qed.

  Lemma scall_ctx_site : forall lines line eline a exts vs inters ch loads,
    map sfi_sig inters = map enc ch ->
    scall_ctx hl lines line eline (enc_input (enc_args a) (sextpairs exts) (enc_vars vs)) inters loads =
    match clines (firstn (Nat.max (S line) eline) lines) with
    | inl e => inl e
    | inr ph => inr (enc_site (Content ph a loads ch exts vs))
    end.
  Proof.
    intros lines line eline a exts vs inters ch loads Hi. unfold scall_ctx.
    rewrite shash_lines_clines. destruct (clines _) as [e|ph]; [reflexivity|].
    rewrite !SX_opt_entry, sfis_siglist_sigl, Hi, enc_site_eq. reflexivity.
  Qed.

  Lemma sfi_sig_set_path : forall x p, sfi_sig (sfi_set_path x p) = sfi_sig x.
  Proof. intros [s q n a l c] p. reflexivity. Qed.

  Lemma sana_eq : forall name tag raises lines params annot is_class bds A R,
    sana hv hl (Fn name tag raises lines params annot is_class bds) A R =
    if is_class then
      match sana_bodies hv hl bds name lines None A R with
      | inl e => inl e
      | inr (mfis, R') =>
        match shash_lines hl lines with
        | inl e => inl e
        | inr bsig =>
          match SX ((k_body_sig, bsig) :: sfis_siglist mfis) with
          | None => inl ErrEmpty
          | Some s => inr (SFI s None name (List.length (fst A)) [] mfis, R')
          end
        end
      end
    else match bds with
         | BCons b _ =>
           match sana_body hv hl b name lines annot A R with
           | inl e => inl e
           | inr (x, R') => inr (x, match annot with Some p => srupdate p (sfi_sig x) R' | None => R' end)
           end
         | BNil => inl ErrEmpty
         end.
  Proof. reflexivity. Qed.

  Lemma sana_bodies_cons : forall b r name lines annot A R,
    sana_bodies hv hl (BCons b r) name lines annot A R =
    match sana_body hv hl b name lines annot A R with
    | inl e => inl e
    | inr (x, R') =>
      match sana_bodies hv hl r name lines annot A R' with
      | inl e => inl e
      | inr (xs, R'') => inr (x :: xs, R'')
      end
    end.
  Proof. reflexivity. Qed.

  Lemma sana_body_eq : forall vars exts sts name lines annot A R,
    sana_body hv hl (Body vars exts sts) name lines annot A R =
    match sargpairs A with
    | inl e => inl e
    | inr ap =>
      match svarpairs hv vars with
      | inl e => inl e
      | inr vp =>
        match sana_steps hv hl sts lines
                (match SX (ap ++ sextpairs exts ++ vp) with Some s => s | None => sempty_list_hash end) ([], [], R) with
        | inl e => inl e
        | inr (inters, loads, R') =>
          match shash_lines hl lines with
          | inl e => inl e
          | inr bsig =>
            match SX ([(k_body_sig, bsig)] ++ ap ++ sdep_pairs loads ++ sfis_siglist inters ++ sextpairs exts ++ vp) with
            | None => inl ErrEmpty
            | Some s => inr (SFI s annot name (List.length (fst A)) (map fst loads) inters, R')
            end
          end
        end
      end
    end.
  Proof. reflexivity. Qed.

  Lemma sana_steps_cons : forall s r lines isig acc,
    sana_steps hv hl (SCons s r) lines isig acc =
    match sana_step hv hl s lines isig acc with
    | inl e => inl e
    | inr acc' => sana_steps hv hl r lines isig acc'
    end.
  Proof. reflexivity. Qed.

  Definition scall_g (g : fn) (cr : aerr + dg) (nr : actx_err + list (bytes * option bytes))
             (post : sfi -> sresolved -> sst3) (R : sresolved) : aerr + sst3 :=
    match cr with
    | inl e => inl e
    | inr c =>
      match nr with
      | inl e => inl (ErrArg e)
      | inr named =>
        match sana hv hl g (named, Some c) R with
        | inl e => inl e
        | inr (t, R') => inr (post t R')
        end
      end
    end.

  Lemma sana_step_SCall : forall line eline g args lines isig inters loads R,
    sana_step hv hl (SCall line eline g args) lines isig (inters, loads, R) =
    scall_g g (scall_ctx hl lines line eline isig inters loads) (scallee_ctx_plain hv g (List.length args))
            (fun t R' => (inters ++ [t], loads, R')) R.
  Proof. reflexivity. Qed.
  Lemma sana_step_SRef : forall line g ex lines isig inters loads R,
    sana_step hv hl (SRef line g ex) lines isig (inters, loads, R) =
    scall_g g (scall_ctx hl lines line line isig inters loads) (scallee_ctx_plain hv g 0)
            (fun t R' => (inters ++ [t], loads, R')) R.
  Proof. reflexivity. Qed.
  Lemma sana_step_SApply : forall g lines isig acc, sana_step hv hl (SApply g) lines isig acc = inr acc.
  Proof. intros g lines isig [[inters loads] R]. reflexivity. Qed.
  Lemma sana_step_SKeep : forall line eline p g pos kw lines isig inters loads R,
    sana_step hv hl (SKeep line eline p g pos kw) lines isig (inters, loads, R) =
    scall_g g (scall_ctx hl lines line eline isig inters loads)
            (sarg_ctx_ast hv (fn_params g) 0 (map snd pos) (map (fun nk => (fst nk, snd (snd nk))) kw))
            (fun t R' => (inters ++ [sfi_set_path t p], loads, srupdate p (sfi_sig t) R')) R.
  Proof. reflexivity. Qed.
  Lemma sana_step_SLoad : forall p lines isig inters loads R,
    sana_step hv hl (SLoad p) lines isig (inters, loads, R) =
    match srlookup p R with
    | None => inl (ErrLoadBeforeStore p)
    | Some sg => inr (inters, srupdate p sg loads, R)
    end.
  Proof. reflexivity. Qed.

  Lemma cana_eq : forall name tag raises lines params annot is_class bds A R,
    cana (Fn name tag raises lines params annot is_class bds) A R =
    if is_class then
      match cana_bodies bds lines A R with
      | inl e => inl e
      | inr (ms, R') =>
        match clines lines with
        | inl e => inl e
        | inr lh => inr (Content lh (ArgsKnown []) [] ms [] [], R')
        end
      end
    else match bds with
         | BCons b _ =>
           match cana_body b lines A R with
           | inl e => inl e
           | inr (c, R') => inr (c, match annot with Some p => srupdate p (enc c) R' | None => R' end)
           end
         | BNil => inl ErrEmpty
         end.
  Proof. reflexivity. Qed.

  Lemma cana_bodies_cons : forall b r lines A R,
    cana_bodies (BCons b r) lines A R =
    match cana_body b lines A R with
    | inl e => inl e
    | inr (c, R') =>
      match cana_bodies r lines A R' with
      | inl e => inl e
      | inr (cs, R'') => inr (c :: cs, R'')
      end
    end.
  Proof. reflexivity. Qed.

  Lemma cana_body_eq : forall vars exts sts lines A R,
    cana_body (Body vars exts sts) lines A R =
    match cargs A with
    | inl e => inl e
    | inr a =>
      match cvars vars with
      | inl e => inl e
      | inr vs =>
        match cana_steps sts lines a exts vs ([], [], R) with
        | inl e => inl e
        | inr (ch, loads, R') =>
          match clines lines with
          | inl e => inl e
          | inr lh => inr (Content lh a loads ch exts vs, R')
          end
        end
      end
    end.
  Proof. reflexivity. Qed.

  Lemma cana_steps_cons : forall s r lines a exts vs acc,
    cana_steps (SCons s r) lines a exts vs acc =
    match cana_step s lines a exts vs acc with
    | inl e => inl e
    | inr acc' => cana_steps r lines a exts vs acc'
    end.
  Proof. reflexivity. Qed.

  Definition ccall_g (g : fn) (cr : aerr + bytes) (site : bytes -> content) (nr : actx_err + list (bytes * option bytes))
             (post : content -> sresolved -> cst3) (R : sresolved) : aerr + cst3 :=
    match cr with
    | inl e => inl e
    | inr ph =>
      match nr with
      | inl e => inl (ErrArg e)
      | inr named =>
        match cana g (named, Some (site ph)) R with
        | inl e => inl e
        | inr (c, R') => inr (post c R')
        end
      end
    end.

  Lemma cana_step_SCall : forall line eline g args lines a exts vs ch loads R,
    cana_step (SCall line eline g args) lines a exts vs (ch, loads, R) =
    ccall_g g (clines (firstn (Nat.max (S line) eline) lines)) (fun ph => Content ph a loads ch exts vs)
            (scallee_ctx_plain hv g (List.length args)) (fun c R' => (ch ++ [c], loads, R')) R.
  Proof. reflexivity. Qed.
  Lemma cana_step_SRef : forall line g ex lines a exts vs ch loads R,
    cana_step (SRef line g ex) lines a exts vs (ch, loads, R) =
    ccall_g g (clines (firstn (Nat.max (S line) line) lines)) (fun ph => Content ph a loads ch exts vs)
            (scallee_ctx_plain hv g 0) (fun c R' => (ch ++ [c], loads, R')) R.
  Proof. reflexivity. Qed.
  Lemma cana_step_SApply : forall g lines a exts vs acc, cana_step (SApply g) lines a exts vs acc = inr acc.
  Proof. intros g lines a exts vs [[ch loads] R]. reflexivity. Qed.
  Lemma cana_step_SKeep : forall line eline p g pos kw lines a exts vs ch loads R,
    cana_step (SKeep line eline p g pos kw) lines a exts vs (ch, loads, R) =
    ccall_g g (clines (firstn (Nat.max (S line) eline) lines)) (fun ph => Content ph a loads ch exts vs)
            (sarg_ctx_ast hv (fn_params g) 0 (map snd pos) (map (fun nk => (fst nk, snd (snd nk))) kw))
            (fun c R' => (ch ++ [c], loads, srupdate p (enc c) R')) R.
  Proof. reflexivity. Qed.
  Lemma cana_step_SLoad : forall p lines a exts vs ch loads R,
    cana_step (SLoad p) lines a exts vs (ch, loads, R) =
    match srlookup p R with
    | None => inl (ErrLoadBeforeStore p)
    | Some sg => inr (ch, srupdate p sg loads, R)
    end.
  Proof. reflexivity. Qed.

  Definition AG_fn (f : fn) : Prop := forall A R, agree (sana hv hl f (skey A) R) (cana f A R).
  Definition AG_body (b : body) : Prop := forall name lines annot A R,
    agree (sana_body hv hl b name lines annot (skey A) R) (cana_body b lines A R).
  Definition AG_bodies (bds : bodies) : Prop :=
    (forall name lines annot A R,
       agree_l (sana_bodies hv hl bds name lines annot (skey A) R) (cana_bodies bds lines A R)) /\
    match bds with BCons b _ => AG_body b | BNil => True end.
  Definition AG_steps (sts : steps) : Prop := forall lines a exts vs inters ch loads R,
    map sfi_sig inters = map enc ch ->
    agree3 (sana_steps hv hl sts lines (enc_input (enc_args a) (sextpairs exts) (enc_vars vs)) (inters, loads, R))
           (cana_steps sts lines a exts vs (ch, loads, R)).
  Definition AG_step (s : step) : Prop := forall lines a exts vs inters ch loads R,
    map sfi_sig inters = map enc ch ->
    agree3 (sana_step hv hl s lines (enc_input (enc_args a) (sextpairs exts) (enc_vars vs)) (inters, loads, R))
           (cana_step s lines a exts vs (ch, loads, R)).

  Lemma AG_call : forall g, AG_fn g ->
    forall lines line eline a exts vs inters ch loads R nr posts postc,
    map sfi_sig inters = map enc ch ->
    (forall t c R', sfi_sig t = enc c -> agree3 (inr (posts t R')) (inr (postc c R'))) ->
    agree3 (scall_g g (scall_ctx hl lines line eline (enc_input (enc_args a) (sextpairs exts) (enc_vars vs)) inters loads)
                    nr posts R)
           (ccall_g g (clines (firstn (Nat.max (S line) eline) lines)) (fun ph => Content ph a loads ch exts vs)
                    nr postc R).
  Proof.
    intros g Hg lines line eline a exts vs inters ch loads R nr posts postc Hi Hpost.
    rewrite (scall_ctx_site lines line eline a exts vs inters ch loads Hi).
    unfold scall_g, ccall_g. destruct (clines _) as [e|ph]; [reflexivity|].
    destruct nr as [e|named]; [reflexivity|].
    specialize (Hg (named, Some (Content ph a loads ch exts vs)) R). unfold skey in Hg. cbn [fst snd option_map] in Hg.
    destruct (sana hv hl g _ R) as [e|[t R1]]; destruct (cana g _ R) as [e'|[c R2]]; cbn [agree] in Hg; try contradiction.
    - cbn [agree3]. exact Hg.
    - destruct Hg as [Hs HR]. subst R2. exact (Hpost t c R1 Hs).
  Qed.

  Lemma AG_all :
    (forall f, AG_fn f) /\ (forall b, AG_bodies b) /\ (forall b, AG_body b) /\ (forall s, AG_steps s) /\ (forall s, AG_step s).
  Proof.
    assert (Hcall : forall line eline g, AG_fn g -> forall args, AG_step (SCall line eline g args)).
    { intros line eline g Hg args lines a exts vs inters ch loads R Hi.
      rewrite sana_step_SCall, cana_step_SCall. apply AG_call; [exact Hg|exact Hi|].
      intros t c R' Ht. cbn [agree3]. rewrite !map_app, Hi. cbn [map]. rewrite Ht. auto. }
    apply prog_mutind.
    - intros name tag raises lines params annot is_class bds [Hb Hb1] A R.
      rewrite sana_eq, cana_eq. destruct is_class.
      + specialize (Hb name lines None A R).
        destruct (sana_bodies hv hl bds name lines None (skey A) R) as [e|[xs R1]];
          destruct (cana_bodies bds lines A R) as [e'|[cs R2]]; cbn [agree_l] in Hb; try contradiction.
        * exact Hb.
        * destruct Hb as [Hs HR]. subst R2. rewrite shash_lines_clines.
          destruct (clines lines) as [e|lh]; [reflexivity|].
          cbn [SX agree sfi_sig]. split; [|reflexivity].
          rewrite enc_eq, enc_args_known, sfis_siglist_sigl, Hs.
          cbn [enc_known sdep_pairs sextpairs enc_vars map app]. rewrite app_nil_r. reflexivity.
      + destruct bds as [|b r]; [reflexivity|].
        specialize (Hb1 name lines annot A R).
        destruct (sana_body hv hl b name lines annot (skey A) R) as [e|[x R1]];
          destruct (cana_body b lines A R) as [e'|[c R2]]; cbn [agree] in Hb1; try contradiction.
        * exact Hb1.
        * destruct Hb1 as [Hs HR]. subst R2. cbn [agree]. split; [exact Hs|]. rewrite Hs. reflexivity.
    - split; [|exact I]. intros name lines annot A R. cbn [sana_bodies cana_bodies agree_l map]. split; reflexivity.
    - intros b Hb r [Hr _]. split; [|exact Hb]. intros name lines annot A R.
      rewrite sana_bodies_cons, cana_bodies_cons. specialize (Hb name lines annot A R).
      destruct (sana_body hv hl b name lines annot (skey A) R) as [e|[x R1]];
        destruct (cana_body b lines A R) as [e'|[c R2]]; cbn [agree] in Hb; try contradiction.
      + exact Hb.
      + destruct Hb as [Hs HR]. subst R2. specialize (Hr name lines annot A R1).
        destruct (sana_bodies hv hl r name lines annot (skey A) R1) as [e|[xs R1']];
          destruct (cana_bodies r lines A R1) as [e'|[cs R2']]; cbn [agree_l] in Hr; try contradiction.
        * exact Hr.
        * destruct Hr as [Hs' HR']. subst R2'. cbn [agree_l map]. split; [rewrite Hs, Hs'|]; reflexivity.
    - intros vars exts sts Hsts name lines annot A R.
      rewrite sana_body_eq, cana_body_eq, sargpairs_cargs, svarpairs_cvars.
      destruct (cargs A) as [e|a]; [reflexivity|]. destruct (cvars vars) as [e|vs]; [reflexivity|].
      rewrite input_sig_enc.
      specialize (Hsts lines a exts vs [] [] [] R eq_refl).
      destruct (sana_steps hv hl sts lines _ ([], [], R)) as [e|[[inters loads] R1]];
        destruct (cana_steps sts lines a exts vs ([], [], R)) as [e'|[[ch loads'] R2]]; cbn [agree3] in Hsts;
        try contradiction.
      + exact Hsts.
      + destruct Hsts as (Hs & Hl & HR). subst loads' R2. rewrite shash_lines_clines.
        destruct (clines lines) as [e|lh]; [reflexivity|].
        cbn [SX app agree sfi_sig]. split; [|reflexivity].
        rewrite enc_eq, sfis_siglist_sigl, Hs. reflexivity.
    - intros lines a exts vs inters ch loads R Hi. cbn [sana_steps cana_steps agree3]. auto.
    - intros s Hs r Hr lines a exts vs inters ch loads R Hi.
      rewrite sana_steps_cons, cana_steps_cons. specialize (Hs lines a exts vs inters ch loads R Hi).
      destruct (sana_step hv hl s lines _ (inters, loads, R)) as [e|[[inters1 loads1] R1]];
        destruct (cana_step s lines a exts vs (ch, loads, R)) as [e'|[[ch1 loads1'] R1']]; cbn [agree3] in Hs;
        try contradiction.
      + exact Hs.
      + destruct Hs as (Hs1 & Hl & HR). subst loads1' R1'. apply Hr. exact Hs1.
    - exact Hcall.
    - (* a by-name mention is analysed as a zero-argument call on one line *)
      intros line g Hg ex. exact (Hcall line line g Hg []).
    - intros g Hg lines a exts vs inters ch loads R Hi.
      rewrite sana_step_SApply, cana_step_SApply. cbn [agree3]. auto.
    - intros line eline p g Hg pos kw lines a exts vs inters ch loads R Hi.
      rewrite sana_step_SKeep, cana_step_SKeep. apply AG_call; [exact Hg|exact Hi|].
      intros t c R' Ht. cbn [agree3]. rewrite !map_app, Hi. cbn [map]. rewrite sfi_sig_set_path, Ht. auto.
    - intros p lines a exts vs inters ch loads R Hi.
      rewrite sana_step_SLoad, cana_step_SLoad. destruct (srlookup p R) as [sg|]; cbn [agree3]; auto.
  Qed.

  Theorem sana_cana : forall f A R, agree (sana hv hl f (skey A) R) (cana f A R).
  Proof. exact (proj1 AG_all). Qed.

  Lemma sana_content : forall f A R x R',
    sana hv hl f (skey A) R = inr (x, R') -> exists c, cana f A R = inr (c, R') /\ sfi_sig x = enc c.
  Proof.
    intros f A R x R' Hs. pose proof (sana_cana f A R) as Hag. rewrite Hs in Hag.
    destruct (cana f A R) as [e|[c R2]]; cbn [agree] in Hag; [contradiction|].
    destruct Hag as [Hsig HR]. subst R2. exists c. split; [reflexivity|exact Hsig].
  Qed.

  (* [A], [A2]: the named arguments and, for a node whose arguments are only known at run time, the call site. *)
  Theorem sig_injective : forall f A R x R' f2 A2 R2 x2 R2',
    sana hv hl f (skey A) R = inr (x, R') -> sana hv hl f2 (skey A2) R2 = inr (x2, R2') ->
    sfi_sig x = sfi_sig x2 ->
    content_of f A R = content_of f2 A2 R2 /\ content_of f A R <> None.
  Proof.
    intros f A R x R' f2 A2 R2 x2 R2' H1 H2 Hsig.
    destruct (sana_content f A R x R' H1) as (c & Hc & Hx).
    destruct (sana_content f2 A2 R2 x2 R2' H2) as (c2 & Hc2 & Hx2).
    unfold content_of. rewrite Hc, Hc2. rewrite Hx, Hx2 in Hsig. apply enc_injective in Hsig. subst c2.
    split; [reflexivity|discriminate].
  Qed.

End Content.

Theorem enc_sensitive : forall lh a loads ch exts vars lh2 a2 loads2 ch2 exts2 vars2,
  lh <> lh2 \/ a <> a2 \/ loads <> loads2 \/ ch <> ch2 \/ exts <> exts2 \/ vars <> vars2 ->
  enc (Content lh a loads ch exts vars) <> enc (Content lh2 a2 loads2 ch2 exts2 vars2).
Proof.
  intros lh a loads ch exts vars lh2 a2 loads2 ch2 exts2 vars2 Hne Heq. apply enc_injective in Heq.
  injection Heq as E1 E2 E3 E4 E5 E6.
  destruct Hne as [N|[N|[N|[N|[N|N]]]]]; apply N; assumption.
Qed.

(* non-vacuity: a function reading a variable and an external name, keeping a child with a run-time argument, then
   loading the kept path *)
Definition ex_hv (v : pyval) : hres :=
  match v with
  | VNone => HOk (bs "h:none")
  | VInt z => HOk (bs "h:int:" ++ dec_Z z)
  | VStr s => HOk (bs "h:str:" ++ s)
  | _ => HErrType
  end.
Definition ex_hl (ls : list bytes) : hres := HOk (bs "h:lines:" ++ join (bs "|") ls).

Definition ex_g : fn :=
  Fn (bs "pkg/mod/g") (bs "g") None [bs "def g(x, y=2):"; bs "    return x + y"; bs ""]
     [Param (bs "x") POK None; Param (bs "y") POK (Some (VInt 2))] None false
     (BCons (Body [] [] SNil) BNil).
Definition ex_f : fn :=
  Fn (bs "pkg/mod/f") (bs "f") None
     [bs "def f():"; bs "    a = dds.keep('/p', g, v)"; bs "    b = dds.load('/p')"; bs "    return np.sum(a, b)"; bs ""]
     [] None false
     (BCons (Body [(bs "v", VInt 3)] [(bs "np", bs "numpy")]
                  (SCons (SKeep 1 1 (bs "/p") ex_g [(EVar 0, ARun)] []) (SCons (SLoad (bs "/p")) SNil)))
            BNil).

Definition ex_content_g_site : content :=
  Content (bs "h:lines:def f():|    a = dds.keep('/p', g, v)") (ArgsKnown []) [] [] [(bs "np", bs "numpy")] [(bs "v", bs "h:int:3")].
Definition ex_content_g : content :=
  Content (bs "h:lines:def g(x, y=2):|    return x + y|") (ArgsFromContext ex_content_g_site) [] [] [] [].
Definition ex_content_f : content :=
  Content (bs "h:lines:def f():|    a = dds.keep('/p', g, v)|    b = dds.load('/p')|    return np.sum(a, b)|")
          (ArgsKnown []) [(bs "/p", enc ex_content_g)] [ex_content_g] [(bs "np", bs "numpy")] [(bs "v", bs "h:int:3")].

Example ex_sana_succeeds :
  exists x R', sana ex_hv ex_hl ex_f ([], None) [] = inr (x, R') /\
               sfi_sig x = enc ex_content_f /\
               content_of ex_hv ex_hl ex_f ([], None) [] = Some ex_content_f.
Proof.
  eexists. eexists. split; [vm_compute; reflexivity|]. split; vm_compute; reflexivity.
Qed.

Section Known.
  Variable hv : pyval -> hres.
  Variable hl : list bytes -> hres.

  Definition args_known (named : list (bytes * option bytes)) : bool :=
    negb (existsb (fun nh : bytes * option bytes => match snd nh with None => true | Some _ => false end) named).

  Lemma sargpairs_known : forall named k1 k2, args_known named = true -> sargpairs (named, k1) = sargpairs (named, k2).
  Proof.
    intros named k1 k2 Hk. unfold args_known in Hk. apply negb_true_iff in Hk. unfold sargpairs. rewrite Hk. reflexivity.
  Qed.

  Lemma sana_body_known : forall b named k1 k2 name lines annot R, args_known named = true ->
    sana_body hv hl b name lines annot (named, k1) R = sana_body hv hl b name lines annot (named, k2) R.
  Proof.
    intros [vars exts sts] named k1 k2 name lines annot R Hk.
    rewrite !sana_body_eq. rewrite (sargpairs_known named k1 k2 Hk). reflexivity.
  Qed.

  Lemma sana_bodies_known : forall bds named k1 k2 name lines annot R, args_known named = true ->
    sana_bodies hv hl bds name lines annot (named, k1) R = sana_bodies hv hl bds name lines annot (named, k2) R.
  Proof.
    induction bds as [|b r IH]; intros named k1 k2 name lines annot R Hk; [reflexivity|].
    rewrite !sana_bodies_cons. rewrite (sana_body_known b named k1 k2 name lines annot R Hk).
    destruct (sana_body hv hl b name lines annot (named, k2) R) as [e|[t R']]; [reflexivity|].
    rewrite (IH named k1 k2 name lines annot R' Hk). reflexivity.
  Qed.

  (* the symbolic counterpart of SigProofs.ctx_free_when_args_known *)
  Theorem sana_key_irrelevant : forall f named k1 k2 R, args_known named = true ->
    sana hv hl f (named, k1) R = sana hv hl f (named, k2) R.
  Proof.
    intros [name tag raises lines params annot is_class bds] named k1 k2 R Hk.
    rewrite !sana_eq. destruct is_class.
    - rewrite (sana_bodies_known bds named k1 k2 name lines None R Hk). reflexivity.
    - destruct bds as [|b r]; [reflexivity|].
      rewrite (sana_body_known b named k1 k2 name lines annot R Hk). reflexivity.
  Qed.

  (* nodes whose arguments are all known, analysed under ANY context key *)
  Corollary sig_injective_known : forall f named key R x R' f2 named2 key2 R2 x2 R2',
    args_known named = true -> args_known named2 = true ->
    sana hv hl f (named, key) R = inr (x, R') -> sana hv hl f2 (named2, key2) R2 = inr (x2, R2') ->
    sfi_sig x = sfi_sig x2 ->
    content_of hv hl f (named, None) R = content_of hv hl f2 (named2, None) R2 /\
    content_of hv hl f (named, None) R <> None.
  Proof.
    intros f named key R x R' f2 named2 key2 R2 x2 R2' Hk Hk2 H1 H2.
    rewrite (sana_key_irrelevant f named key None R Hk) in H1.
    rewrite (sana_key_irrelevant f2 named2 key2 None R2 Hk2) in H2.
    exact (sig_injective hv hl f (named, None) R x R' f2 (named2, None) R2 x2 R2' H1 H2).
  Qed.
End Known.

Section Faithful.
  Variable H : bytes -> bytes.
  Variable mx : option N.

  Definition hv0 (v : pyval) : hres := dds_hash H mx v.
  Definition hl0 (ls : list bytes) : hres := dds_hash H mx (VList (map VStr ls)).

  Notation rd := (render H).
  Notation rp := (render_pairs H).
  Notation rs := (render_sfi H).

  Lemma render_comb_eq : forall l,
    rd (DComb l) = match dds_hash_commut H (rp l) with Some s => s | None => H [] end.
  Proof. reflexivity. Qed.

  Lemma render_sfi_eq : forall s p n a l ch, rs (SFI s p n a l ch) = FI (rd s) p n a l (map rs ch).
  Proof. reflexivity. Qed.

  Lemma fi_sig_render : forall x, fi_sig (rs x) = rd (sfi_sig x).
  Proof. intros [s p n a l ch]. reflexivity. Qed.

  Lemma X_render : forall l, X H (rp l) = option_map rd (SX l).
  Proof. intros [|x l]; reflexivity. Qed.

  Lemma rp_app : forall a b, rp (a ++ b) = rp a ++ rp b.
  Proof. intros a b. unfold render_pairs. apply map_app. Qed.

  Lemma rlookup_render : forall p R, rlookup p (rp R) = option_map rd (srlookup p R).
  Proof.
    induction R as [|[k v] t IH]; [reflexivity|].
    cbn [render_pairs map fst snd rlookup srlookup]. destruct (bytes_eqb p k); [reflexivity|exact IH].
  Qed.

  Lemma rupdate_render : forall p s R, rupdate p (rd s) (rp R) = rp (srupdate p s R).
  Proof.
    induction R as [|[k v] t IH]; [reflexivity|].
    cbn [render_pairs map fst snd rupdate srupdate]. destruct (bytes_eqb p k); [reflexivity|].
    cbn [map fst snd]. f_equal. exact IH.
  Qed.

  Lemma hash_lines_render : forall ls,
    hash_lines H mx ls = match shash_lines hl0 ls with inl e => inl e | inr d => inr (rd d) end.
  Proof. intros ls. unfold hash_lines, shash_lines, hl0. destruct (dds_hash H mx _); reflexivity. Qed.

  Lemma siglist_from_render : forall l i, fis_siglist_from i (map rs l) = rp (sfis_siglist_from i l).
  Proof.
    induction l as [|x l IH]; intros i; [reflexivity|].
    cbn [map fis_siglist_from sfis_siglist_from render_pairs fst snd]. rewrite fi_sig_render. f_equal. apply IH.
  Qed.
  Lemma siglist_render : forall l, fis_siglist (map rs l) = rp (sfis_siglist l).
  Proof. intros l. apply siglist_from_render. Qed.

  Lemma dep_pairs_render : forall l, dep_pairs (rp l) = rp (sdep_pairs l).
  Proof. intros l. unfold dep_pairs, sdep_pairs, render_pairs. rewrite !map_map. reflexivity. Qed.

  Lemma extpairs_render : forall l, extpairs H l = rp (sextpairs l).
  Proof. intros l. unfold extpairs, sextpairs, render_pairs. rewrite map_map. reflexivity. Qed.

  Lemma argpairs_render : forall named key,
    argpairs (named, option_map rd key) =
    match sargpairs (named, key) with inl e => inl e | inr l => inr (rp l) end.
  Proof.
    intros named key. unfold argpairs, sargpairs. destruct (existsb _ named).
    - destruct key; reflexivity.
    - f_equal. induction named as [|[n [h|]] t IH]; [reflexivity| |].
      + cbn [flat_map snd fst app render_pairs map render]. f_equal. exact IH.
      + cbn [flat_map snd fst app]. exact IH.
  Qed.

  Lemma varpairs_render : forall vars,
    varpairs H mx vars = match svarpairs hv0 vars with inl e => inl e | inr l => inr (rp l) end.
  Proof.
    induction vars as [|[n v] r IH]; [reflexivity|].
    cbn [varpairs svarpairs]. unfold hv0 at 1. destruct (dds_hash H mx v); try reflexivity.
    rewrite IH. destruct (svarpairs hv0 r); reflexivity.
  Qed.

  Lemma arg_ctx_ast_render : forall ps idx pos kw,
    arg_ctx_ast H mx ps idx pos kw = sarg_ctx_ast hv0 ps idx pos kw.
  Proof.
    induction ps as [|p r IH]; intros idx pos kw; [reflexivity|].
    cbn [arg_ctx_ast sarg_ctx_ast]. rewrite IH. reflexivity.
  Qed.

  Lemma callee_ctx_plain_render : forall g n, callee_ctx_plain H mx g n = scallee_ctx_plain hv0 g n.
  Proof. intros g n. unfold callee_ctx_plain, scallee_ctx_plain. rewrite arg_ctx_ast_render. reflexivity. Qed.

  Lemma input_sig_render : forall ap ep vp,
    match X H (rp ap ++ rp ep ++ rp vp) with Some s => s | None => empty_list_hash H end =
    rd (match SX (ap ++ ep ++ vp) with Some s => s | None => sempty_list_hash end).
  Proof.
    intros ap ep vp. rewrite <- !rp_app, X_render. destruct (SX (ap ++ ep ++ vp)); reflexivity.
  Qed.

  Lemma rp_opt_entry : forall k l,
    match option_map rd (SX l) with Some h => [(k, h)] | None => [] end =
    rp (match SX l with Some h => [(k, h)] | None => [] end).
  Proof. intros k [|x l]; reflexivity. Qed.

  Lemma call_ctx_render : forall lines line eline isig inters loads,
    call_ctx H mx lines line eline (rd isig) (map rs inters) (rp loads) =
    match scall_ctx hl0 lines line eline isig inters loads with inl e => inl e | inr c => inr (rd c) end.
  Proof.
    intros lines line eline isig inters loads. unfold call_ctx, scall_ctx.
    rewrite hash_lines_render. destruct (shash_lines hl0 _) as [e|bh]; [reflexivity|].
    rewrite siglist_render, dep_pairs_render, !X_render, !rp_opt_entry.
    change ([(k_body_sig, rd bh); (k_fun_input, rd isig)]) with (rp [(k_body_sig, bh); (k_fun_input, isig)]).
    rewrite <- !rp_app, X_render. reflexivity.
  Qed.

  Definition rmap (r : aerr + (sfi * sresolved)) : aerr + (fi * resolved) :=
    match r with inl e => inl e | inr (x, R) => inr (rs x, rp R) end.
  Definition rmap_l (r : aerr + (list sfi * sresolved)) : aerr + (list fi * resolved) :=
    match r with inl e => inl e | inr (xs, R) => inr (map rs xs, rp R) end.
  Definition r3 (a : sst3) : st3 :=
    match a with (xs, l, R) => @pair (list fi * list (bytes * bytes)) resolved (map rs xs, rp l) (rp R) end.
  Definition rmap3 (r : aerr + sst3) : aerr + st3 := match r with inl e => inl e | inr a => inr (r3 a) end.
  Definition FF_fn (f : fn) : Prop := forall named key R,
    ana H mx f (named, option_map rd key) (rp R) = rmap (sana hv0 hl0 f (named, key) R).
  Definition FF_body (b : body) : Prop := forall name lines annot named key R,
    ana_body H mx b name lines annot (named, option_map rd key) (rp R) =
    rmap (sana_body hv0 hl0 b name lines annot (named, key) R).
  Definition FF_bodies (bds : bodies) : Prop :=
    (forall name lines annot named key R,
       ana_bodies H mx bds name lines annot (named, option_map rd key) (rp R) =
       rmap_l (sana_bodies hv0 hl0 bds name lines annot (named, key) R)) /\
    match bds with BCons b _ => FF_body b | BNil => True end.
  Definition FF_steps (sts : steps) : Prop := forall lines isig acc,
    ana_steps H mx sts lines (rd isig) (r3 acc) = rmap3 (sana_steps hv0 hl0 sts lines isig acc).
  Definition FF_step (s : step) : Prop := forall lines isig acc,
    ana_step H mx s lines (rd isig) (r3 acc) = rmap3 (sana_step hv0 hl0 s lines isig acc).

  Lemma rs_set_path : forall x p, rs (sfi_set_path x p) = fi_set_path (rs x) p.
  Proof. intros [s q n a l c] p. reflexivity. Qed.

  Lemma FF_call : forall g, FF_fn g ->
    forall lines line eline isig inters loads R nr posts post,
    (forall t R', post (rs t) (rp R') = r3 (posts t R')) ->
    call_g H mx g (call_ctx H mx lines line eline (rd isig) (map rs inters) (rp loads)) nr post (rp R) =
    rmap3 (scall_g hv0 hl0 g (scall_ctx hl0 lines line eline isig inters loads) nr posts R).
  Proof.
    intros g Hg lines line eline isig inters loads R nr posts post Hpost.
    rewrite call_ctx_render. unfold call_g, scall_g.
    destruct (scall_ctx hl0 lines line eline isig inters loads) as [e|c]; [reflexivity|].
    destruct nr as [e|named]; [reflexivity|].
    change (Some (rd c)) with (option_map rd (Some c)). rewrite Hg.
    destruct (sana hv0 hl0 g (named, Some c) R) as [e|[t R']]; [reflexivity|].
    cbn [rmap rmap3]. rewrite Hpost. reflexivity.
  Qed.

  Lemma FF_all :
    (forall f, FF_fn f) /\ (forall b, FF_bodies b) /\ (forall b, FF_body b) /\ (forall s, FF_steps s) /\ (forall s, FF_step s).
  Proof.
    assert (Hcall : forall line eline g, FF_fn g -> forall args, FF_step (SCall line eline g args)).
    { intros line eline g Hg args lines isig [[inters loads] R]. cbn [r3].
      rewrite ana_step_SCall, sana_step_SCall, callee_ctx_plain_render. apply FF_call; [exact Hg|].
      intros t R'. cbn [r3]. rewrite map_app. reflexivity. }
    apply prog_mutind.
    - intros name tag raises lines params annot is_class bds [Hb Hb1] named key R.
      rewrite ana_eq, sana_eq. destruct is_class.
      + rewrite Hb. destruct (sana_bodies hv0 hl0 bds name lines None (named, key) R) as [e|[xs R1]]; [reflexivity|].
        cbn [rmap_l fin_class]. rewrite hash_lines_render. destruct (shash_lines hl0 lines) as [e|bsig]; [reflexivity|].
        rewrite siglist_render.
        change ((k_body_sig, rd bsig) :: rp (sfis_siglist xs)) with (rp ((k_body_sig, bsig) :: sfis_siglist xs)).
        rewrite X_render. reflexivity.
      + destruct bds as [|b r]; [reflexivity|].
        rewrite Hb1. destruct (sana_body hv0 hl0 b name lines annot (named, key) R) as [e|[x R1]]; [reflexivity|].
        cbn [rmap fin_fun]. destruct annot as [p|]; [|reflexivity]. rewrite fi_sig_render, rupdate_render. reflexivity.
    - split; [|exact I]. intros name lines annot named key R. reflexivity.
    - intros b Hb r [Hr _]. split; [|exact Hb]. intros name lines annot named key R.
      rewrite ana_bodies_cons, sana_bodies_cons, Hb.
      destruct (sana_body hv0 hl0 b name lines annot (named, key) R) as [e|[x R1]]; [reflexivity|].
      cbn [rmap fin_cons]. rewrite Hr.
      destruct (sana_bodies hv0 hl0 r name lines annot (named, key) R1) as [e|[xs R2]]; reflexivity.
    - intros vars exts sts Hsts name lines annot named key R.
      rewrite ana_body_eq, sana_body_eq. unfold input_sig_of.
      rewrite argpairs_render. destruct (sargpairs (named, key)) as [e|ap]; [reflexivity|].
      rewrite varpairs_render. destruct (svarpairs hv0 vars) as [e|vp]; [reflexivity|].
      rewrite extpairs_render, input_sig_render.
      rewrite (Hsts lines _ (@pair (list sfi * list (bytes * dg)) sresolved ([], []) R)).
      destruct (sana_steps hv0 hl0 sts lines _ _) as [e|[[inters loads] R1]]; [reflexivity|].
      cbn [rmap3 r3 fin_body]. rewrite hash_lines_render. destruct (shash_lines hl0 lines) as [e|bsig]; [reflexivity|].
      rewrite siglist_render, dep_pairs_render.
      change ([(k_body_sig, rd bsig)]) with (rp [(k_body_sig, bsig)]).
      rewrite <- !rp_app, X_render.
      destruct (SX _) as [s|]; [|reflexivity].
      cbn [option_map rmap]. rewrite render_sfi_eq. unfold render_pairs at 1. rewrite map_map. reflexivity.
    - intros lines isig acc. reflexivity.
    - intros s Hs r Hr lines isig acc.
      rewrite ana_steps_cons, sana_steps_cons, Hs.
      destruct (sana_step hv0 hl0 s lines isig acc) as [e|acc']; [reflexivity|]. apply Hr.
    - exact Hcall.
    - (* a by-name mention is analysed as a zero-argument call on one line *)
      intros line g Hg ex. exact (Hcall line line g Hg []).
    - intros g Hg lines isig acc. rewrite ana_step_SApply, sana_step_SApply. reflexivity.
    - intros line eline p g Hg pos kw lines isig [[inters loads] R]. cbn [r3].
      rewrite ana_step_SKeep, sana_step_SKeep, arg_ctx_ast_render. apply FF_call; [exact Hg|].
      intros t R'. cbn [r3]. rewrite map_app, fi_sig_render, rupdate_render. cbn [map]. rewrite rs_set_path. reflexivity.
    - intros p lines isig [[inters loads] R]. cbn [r3].
      rewrite ana_step_SLoad, sana_step_SLoad, rlookup_render.
      destruct (srlookup p R) as [sg|]; [|reflexivity]. cbn [option_map rmap3 r3]. rewrite rupdate_render. reflexivity.
  Qed.

  Theorem sana_faithful : forall f named key R,
    ana H mx f (named, option_map (render H) key) (render_pairs H R) =
    match sana hv0 hl0 f (named, key) R with
    | inl e => inl e
    | inr (x, R') => inr (render_sfi H x, render_pairs H R')
    end.
  Proof. exact (proj1 FF_all). Qed.
End Faithful.

(* [peq t t']: t' is t with the entries of every combination permuted (dds_hash_commut is an XOR-fold: the order of
   the entries is not observable) *)
Inductive peq : dg -> dg -> Prop :=
| PeqBytes : forall b, peq (DBytes b) (DBytes b)
| PeqHash : forall b, peq (DHash b) (DHash b)
| PeqComb : forall l l', pleq l l' -> peq (DComb l) (DComb l')
with pleq : list (bytes * dg) -> list (bytes * dg) -> Prop :=
| PleqNil : pleq [] []
| PleqCons : forall k v v' l l1 l2, peq v v' -> pleq l (l1 ++ l2) -> pleq ((k, v) :: l) (l1 ++ (k, v') :: l2).

Section DgInd.
  Variable P : dg -> Prop.
  Hypothesis HB : forall b, P (DBytes b).
  Hypothesis HH : forall b, P (DHash b).
  Hypothesis HC : forall l, Forall (fun kv => P (snd kv)) l -> P (DComb l).
  Fixpoint dg_ind' (t : dg) : P t :=
    match t with
    | DBytes b => HB b
    | DHash b => HH b
    | DComb l => HC l ((fix go (l : list (bytes * dg)) : Forall (fun kv => P (snd kv)) l :=
                          match l with
                          | [] => Forall_nil _
                          | kv :: r => Forall_cons kv (dg_ind' (snd kv)) (go r)
                          end) l)
    end.
End DgInd.

(* equal terms are related, so [sig_injective_perm] also covers equal signatures *)
Lemma peq_refl : forall t, peq t t.
Proof.
  induction t as [b|b|l IH] using dg_ind'; [constructor|constructor|].
  constructor. induction IH as [|[k v] l Hv _ IHl]; [constructor|].
  exact (PleqCons k v v l [] l Hv IHl).
Qed.

Lemma pleq_length : forall l l', pleq l l' -> List.length l = List.length l'.
Proof.
  intros l l' Hp. induction Hp as [|k v v' l l1 l2 _ _ IH]; [reflexivity|].
  rewrite app_length in *. cbn [List.length]. rewrite IH. lia.
Qed.

Lemma pleq_single : forall k v k2 v2, pleq [(k, v)] [(k2, v2)] -> peq v v2.
Proof.
  intros k v k2 v2 Hp. inversion Hp as [|k' v0 v' l l1 l2 Hv Hl Hk Heq]. subst.
  destruct l1 as [|x [|y l1]]; try discriminate Heq. injection Heq as _ ->. exact Hv.
Qed.

Lemma pleq_pick : forall a l l', pleq l l' -> pleq (pick a l) (pick a l').
Proof.
  intros a l l' Hp. induction Hp as [|k v v' l l1 l2 Hv _ IH]; [constructor|].
  rewrite pick_app in *. unfold pick in *. cbn [filter fst]. destruct (kfam_eq_dec (fam k) a).
  - apply PleqCons; assumption.
  - exact IH.
Qed.

Lemma peq_leaf : forall t t', peq t t' -> leaf t -> t' = t.
Proof. intros t t' Hp Hl. destruct Hp; [reflexivity|reflexivity|destruct Hl]. Qed.

Lemma pleq_leaves : forall l l', Forall (fun kv => leaf (snd kv)) l -> pleq l l' -> Permutation l l'.
Proof.
  intros l l' Hl Hp. induction Hp as [|k v v' l l1 l2 Hv _ IH]; [constructor|].
  inversion Hl as [|? ? Hlv Hl']; subst. rewrite (peq_leaf v v' Hv Hlv). apply Permutation_cons_app, IH, Hl'.
Qed.

Lemma pleq_map_leaves : forall (A : Type) (f : A -> bytes * dg),
  (forall x y, f x = f y -> x = y) -> (forall x, leaf (snd (f x))) ->
  forall l l2, pleq (map f l) (map f l2) -> Permutation l l2.
Proof.
  intros A f Hinj Hleaf l l2 Hp.
  apply pleq_leaves in Hp; [|apply Forall_map, Forall_forall; intros x _; apply Hleaf].
  apply Permutation_map_inv in Hp as (l3 & E & Hp). apply (map_inj _ _ f Hinj) in E. subst l3. symmetry. exact Hp.
Qed.

Lemma pleq_deps : forall l l2, pleq (sdep_pairs l) (sdep_pairs l2) -> pleq l l2.
Proof.
  induction l as [|[p s] l IH]; intros l2 Hp.
  - apply pleq_length in Hp. destruct l2; [constructor|discriminate Hp].
  - cbn [sdep_pairs map fst snd] in Hp. inversion Hp as [|k v v' l0 l1 l1' Hv Hl Hk Heq]. subst.
    symmetry in Heq. apply map_eq_app in Heq. destruct Heq as (la & lb' & Hl2 & Hla & Hlb).
    apply map_eq_cons in Hlb. destruct Hlb as ([p2 s2] & lb & Hlb' & Hy & Hlb). subst l2 lb' l1 l1'.
    injection Hy as -> ->.
    apply PleqCons; [exact Hv|]. apply IH. unfold sdep_pairs. rewrite map_app. exact Hl.
Qed.

(* the interactions: the index is part of the key, so they cannot be permuted *)
Lemma sigl_key_pos : forall vs i l1 j v l2, sigl_from i vs = l1 ++ (k_fun_dep j, v) :: l2 -> j = i + List.length l1.
Proof.
  induction vs as [|s r IH]; intros i l1 j v l2 Heq; [destruct l1; discriminate Heq|].
  destruct l1 as [|x l1]; cbn [sigl_from app] in Heq.
  - assert (Hk : k_fun_dep i = k_fun_dep j) by congruence. apply k_fun_dep_inj in Hk. cbn [List.length]. lia.
  - assert (Hr : sigl_from (S i) r = l1 ++ (k_fun_dep j, v) :: l2) by congruence.
    apply IH in Hr. cbn [List.length]. lia.
Qed.

Lemma pleq_sigl : forall vs vs2 i, pleq (sigl_from i vs) (sigl_from i vs2) -> Forall2 peq vs vs2.
Proof.
  induction vs as [|s r IH]; intros vs2 i Hp.
  - apply pleq_length in Hp. destruct vs2; [constructor|discriminate Hp].
  - cbn [sigl_from] in Hp. inversion Hp as [|k v v' l0 l1 l2 Hv Hl Hk Heq]. subst.
    symmetry in Heq. pose proof (sigl_key_pos vs2 i l1 i v' l2 Heq) as Hpos.
    destruct l1 as [|x l1]; [|cbn [List.length] in Hpos; lia].
    destruct vs2 as [|s2 r2]; [discriminate Heq|].
    cbn [sigl_from app] in Heq. assert (s2 = v' /\ sigl_from (S i) r2 = l2) as [-> <-] by (split; congruence).
    constructor; [exact Hv|exact (IH r2 (S i) Hl)].
Qed.

(* contents up to the order of the named entries (arguments, loads, external names, variables); the order of the
   interactions is kept *)
Inductive ceq : content -> content -> Prop :=
| CeqNode : forall lh a a2 loads loads2 ch ch2 exts exts2 vars vars2,
    aeq a a2 -> pleq loads loads2 -> Forall2 ceq ch ch2 -> Permutation exts exts2 -> Permutation vars vars2 ->
    ceq (Content lh a loads ch exts vars) (Content lh a2 loads2 ch2 exts2 vars2)
with aeq : arg_content -> arg_content -> Prop :=
| AeqKnown : forall l l2, Permutation l l2 -> aeq (ArgsKnown l) (ArgsKnown l2)
| AeqCtx : forall c c2, ceq c c2 -> aeq (ArgsFromContext c) (ArgsFromContext c2).

Lemma enc_injective_perm_all : forall c,
  (forall c2, peq (enc c) (enc c2) -> ceq c c2) /\ (forall c2, peq (enc_site c) (enc_site c2) -> ceq c c2).
Proof.
  apply (enc_inj peq pleq (@Permutation) ceq aeq).
  - intros l t Hp. inversion Hp; subst. eauto.
  - exact peq_leaf.
  - exact PleqNil.
  - exact pleq_pick.
  - exact pleq_length.
  - exact pleq_single.
  - exact pleq_map_leaves.
  - exact pleq_deps.
  - exact pleq_sigl.
  - exact CeqNode.
  - exact AeqKnown.
  - exact AeqCtx.
Qed.

Theorem enc_injective_perm : forall c c2, peq (enc c) (enc c2) -> ceq c c2.
Proof. intros c. exact (proj1 (enc_injective_perm_all c)). Qed.

Theorem sig_injective_perm : forall hv hl f A R x R' f2 A2 R2 x2 R2',
  sana hv hl f (skey A) R = inr (x, R') -> sana hv hl f2 (skey A2) R2 = inr (x2, R2') ->
  peq (sfi_sig x) (sfi_sig x2) ->
  exists c c2, content_of hv hl f A R = Some c /\ content_of hv hl f2 A2 R2 = Some c2 /\ ceq c c2.
Proof.
  intros hv hl f A R x R' f2 A2 R2 x2 R2' H1 H2 Hsig.
  destruct (sana_content hv hl f A R x R' H1) as (c & Hc & Hx).
  destruct (sana_content hv hl f2 A2 R2 x2 R2' H2) as (c2 & Hc2 & Hx2).
  exists c, c2. unfold content_of. rewrite Hc, Hc2. rewrite Hx, Hx2 in Hsig.
  split; [reflexivity|]. split; [reflexivity|]. apply enc_injective_perm. exact Hsig.
Qed.
