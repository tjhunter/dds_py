(* Theorems about signatures (C02, C03) and about re-evaluation (C02) over the executable models Sig.v (the analysis
   [ana] of dds/introspect.py) and DdsEval.v (the evaluation of dds/_api.py).
   Signatures.  Section S first gives one-step unfoldings of the mutual analysis ([ana_eq], [ana_body_eq],
   [ana_bodies_cons], [ana_steps_cons], [ana_step_S*]) with the post-processing of each level named ([fin_class],
   [fin_fun], [fin_cons], [fin_body], [call_g]).  On them: [ana_args] and [ctx_free_when_args_known] (the call-site
   context is read only through [argpairs]); [sig_name_independent] from [RN_all]; [sig_ignores_exec_info] from
   [ST_all].  [RN_all] and [ST_all] prove one statement per syntactic class (fn / bodies / body / steps / step) together,
   by [prog_mutind], each case rewriting with the unfolding of its level and commuting the renaming (the stripping)
   through the named post-processing.
   Re-evaluation.  [RR_fn_all] ([good]: blobs unchanged, only plain tags logged) is by [prog_ind_view], the induction over
   programs whose step case is stated on the [step_view] of the step; [step_good] is that case, [RR_cons] the sequence.
   [rerun_executes_no_kept_body] restates [RR_fn_all]; [root_hit_executes_nothing] is [dds_call_eq] and a computation.
   This file of layer 3 imports the proof file L4_Eval/EvalProofs.v, for [step_view], [exec_view], [exec_step_view],
   [view_ok], [prog_ind_view], [exec_fn_eq], [exec_body_eq], [exec_steps_cons], [commit] and [dds_call_eq]. *)
From Coq Require Import List Ascii String ZArith NArith Bool.
From DDS Require Import Base.Bytes L0_Hash.PyVal L0_Hash.DdsHash L1_Args.ArgCtx L3_Sig.Program L3_Sig.Sig
     L4_Eval.Stages L4_Eval.DdsEval L3_Sig.SigSpec L4_Eval.EvalProofs.
Import ListNotations.

Section FiInd.
  Variable P : fi -> Prop.
  Hypothesis Hnode : forall s p n a l ch, Forall P ch -> P (FI s p n a l ch).
  Fixpoint fi_ind' (x : fi) : P x :=
    match x with
    | FI s p n a l ch =>
      Hnode s p n a l ch
        ((fix go (c : list fi) : Forall P c :=
            match c with
            | [] => Forall_nil P
            | y :: t => Forall_cons y (fi_ind' y) (go t)
            end) ch)
    end.
End FiInd.

Lemma fi_sig_rename : forall r x, fi_sig (fi_rename r x) = fi_sig x.
Proof. intros r [s p n a l ch]. reflexivity. Qed.

Lemma fi_path_rename : forall r x, fi_path (fi_rename r x) = fi_path x.
Proof. intros r [s p n a l ch]. reflexivity. Qed.

Lemma fi_set_path_rename : forall r x p, fi_set_path (fi_rename r x) p = fi_rename r (fi_set_path x p).
Proof. intros r [s q n a l ch] p. reflexivity. Qed.

Lemma fis_siglist_rename : forall r l, fis_siglist (map (fi_rename r) l) = fis_siglist l.
Proof.
  intros r l. unfold fis_siglist. generalize 0. induction l as [|x t IH]; intros i; [reflexivity|].
  cbn [map fis_siglist_from]. rewrite fi_sig_rename, IH. reflexivity.
Qed.

Lemma store_paths_list_eq : forall s p n a l ch,
  store_paths_list (FI s p n a l ch) =
  (match p with Some q => [(q, s)] | None => [] end) ++ flat_map store_paths_list ch.
Proof. reflexivity. Qed.

Lemma store_paths_list_rename : forall r x, store_paths_list (fi_rename r x) = store_paths_list x.
Proof.
  intros r x. induction x as [s p n a l ch HF] using fi_ind'. cbn [fi_rename].
  rewrite !store_paths_list_eq, !flat_map_concat_map, map_map, (map_ext_Forall _ _ HF). reflexivity.
Qed.

Lemma all_store_paths_rename : forall r x, all_store_paths (fi_rename r x) = all_store_paths x.
Proof. intros r x. unfold all_store_paths. rewrite store_paths_list_rename. reflexivity. Qed.

Lemma fn_params_rename : forall r g, fn_params (rename_fn r g) = fn_params g.
Proof. intros r [n t ra ls ps an c bds]. reflexivity. Qed.
Lemma fn_params_strip : forall g, fn_params (strip_fn g) = fn_params g.
Proof. intros [n t ra ls ps an c bds]. reflexivity. Qed.

Lemma all_known_no_unknown : forall named, all_known named = true ->
  existsb (fun nh : bytes * option bytes => match snd nh with None => true | Some _ => false end) named = false.
Proof.
  induction named as [|[n [h|]] t IH]; intros Hk.
  - reflexivity.
  - cbn [existsb snd orb]. apply IH. exact Hk.
  - discriminate Hk.
Qed.

Lemma argpairs_known : forall named k1 k2, all_known named = true -> argpairs (named, k1) = argpairs (named, k2).
Proof.
  intros named k1 k2 Hk. unfold argpairs. rewrite (all_known_no_unknown named Hk). reflexivity.
Qed.

Section S.
  Variable H : bytes -> bytes.
  Variable mx : option N.

  (* one-step unfoldings of the mutual analysis, with the post-processing of each level named: proofs about [ana]
     rewrite with them instead of unfolding the five mutual fixpoints *)
  Definition fin_class (lines : list bytes) (name : bytes) (nargs : nat) (x : aerr + (list fi * resolved))
    : aerr + (fi * resolved) :=
    match x with
    | inl e => inl e
    | inr (mfis, R') =>
      match hash_lines H mx lines with
      | inl e => inl e
      | inr bsig =>
        match X H ((k_body_sig, bsig) :: fis_siglist mfis) with
        | None => inl ErrEmpty
        | Some s => inr (FI s None name nargs [] mfis, R')
        end
      end
    end.

  Definition fin_fun (annot : option bytes) (x : aerr + (fi * resolved)) : aerr + (fi * resolved) :=
    match x with
    | inl e => inl e
    | inr (t, R') => inr (t, match annot with Some p => rupdate p (fi_sig t) R' | None => R' end)
    end.

  Lemma ana_eq : forall name tag raises lines params annot is_class bds A R,
    ana H mx (Fn name tag raises lines params annot is_class bds) A R =
    if is_class then fin_class lines name (List.length (fst A)) (ana_bodies H mx bds name lines None A R)
    else match bds with
         | BCons b _ => fin_fun annot (ana_body H mx b name lines annot A R)
         | BNil => inl ErrEmpty
         end.
  Proof. reflexivity. Qed.

  Definition fin_cons (x : aerr + (fi * resolved)) (k : resolved -> aerr + (list fi * resolved))
    : aerr + (list fi * resolved) :=
    match x with
    | inl e => inl e
    | inr (t, R') => match k R' with inl e => inl e | inr (xs, R'') => inr (t :: xs, R'') end
    end.

  Lemma ana_bodies_cons : forall b r name lines annot A R,
    ana_bodies H mx (BCons b r) name lines annot A R =
    fin_cons (ana_body H mx b name lines annot A R) (fun R' => ana_bodies H mx r name lines annot A R').
  Proof. reflexivity. Qed.

  Definition input_sig_of (ap ep vp : list (bytes * bytes)) : bytes :=
    match X H (ap ++ ep ++ vp) with Some s => s | None => empty_list_hash H end.

  Definition fin_body (lines : list bytes) (annot : option bytes) (name : bytes) (nargs : nat)
             (ap ep vp : list (bytes * bytes)) (x : aerr + st3) : aerr + (fi * resolved) :=
    match x with
    | inl e => inl e
    | inr (inters, loads, R') =>
      match hash_lines H mx lines with
      | inl e => inl e
      | inr bsig =>
        match X H ([(k_body_sig, bsig)] ++ ap ++ dep_pairs loads ++ fis_siglist inters ++ ep ++ vp) with
        | None => inl ErrEmpty
        | Some s => inr (FI s annot name nargs (map fst loads) inters, R')
        end
      end
    end.

  Lemma ana_body_eq : forall vars exts sts name lines annot A R,
    ana_body H mx (Body vars exts sts) name lines annot A R =
    match argpairs A with
    | inl e => inl e
    | inr ap =>
      match varpairs H mx vars with
      | inl e => inl e
      | inr vp =>
        fin_body lines annot name (List.length (fst A)) ap (extpairs H exts) vp
                 (ana_steps H mx sts lines (input_sig_of ap (extpairs H exts) vp) ([], [], R))
      end
    end.
  Proof. reflexivity. Qed.

  Lemma ana_steps_cons : forall s r lines isig acc,
    ana_steps H mx (SCons s r) lines isig acc =
    match ana_step H mx s lines isig acc with
    | inl e => inl e
    | inr acc' => ana_steps H mx r lines isig acc'
    end.
  Proof. reflexivity. Qed.

  (* the common shape of a plain call and of a keep: context, argument context, analysis of the callee *)
  Definition call_g (g : fn) (cr : aerr + bytes) (nr : actx_err + list (bytes * option bytes))
             (post : fi -> resolved -> st3) (R : resolved) : aerr + st3 :=
    match cr with
    | inl e => inl e
    | inr c =>
      match nr with
      | inl e => inl (ErrArg e)
      | inr named =>
        match ana H mx g (named, Some c) R with
        | inl e => inl e
        | inr (t, R') => inr (post t R')
        end
      end
    end.

  Lemma ana_step_SCall : forall line eline g args lines isig inters loads R,
    ana_step H mx (SCall line eline g args) lines isig (inters, loads, R) =
    call_g g (call_ctx H mx lines line eline isig inters loads) (callee_ctx_plain H mx g (List.length args))
           (fun t R' => (inters ++ [t], loads, R')) R.
  Proof. reflexivity. Qed.

  Lemma ana_step_SRef : forall line g ex lines isig inters loads R,
    ana_step H mx (SRef line g ex) lines isig (inters, loads, R) =
    call_g g (call_ctx H mx lines line line isig inters loads) (callee_ctx_plain H mx g 0)
           (fun t R' => (inters ++ [t], loads, R')) R.
  Proof. reflexivity. Qed.

  Lemma ana_step_SApply : forall g lines isig acc, ana_step H mx (SApply g) lines isig acc = inr acc.
  Proof. intros g lines isig [[inters loads] R]. reflexivity. Qed.

  Lemma ana_step_SKeep : forall line eline p g pos kw lines isig inters loads R,
    ana_step H mx (SKeep line eline p g pos kw) lines isig (inters, loads, R) =
    call_g g (call_ctx H mx lines line eline isig inters loads)
           (arg_ctx_ast H mx (fn_params g) 0 (map snd pos) (map (fun nk => (fst nk, snd (snd nk))) kw))
           (fun t R' => (inters ++ [fi_set_path t p], loads, rupdate p (fi_sig t) R')) R.
  Proof. reflexivity. Qed.

  Lemma ana_step_SLoad : forall p lines isig inters loads R,
    ana_step H mx (SLoad p) lines isig (inters, loads, R) =
    match rlookup p R with
    | None => inl (ErrLoadBeforeStore p)
    | Some sg => inr (inters, rupdate p sg loads, R)
    end.
  Proof. reflexivity. Qed.

  Lemma ana_bodies_nil : forall name lines annot A R, ana_bodies H mx BNil name lines annot A R = inr ([], R).
  Proof. reflexivity. Qed.

  Lemma ana_steps_nil : forall lines isig acc, ana_steps H mx SNil lines isig acc = inr acc.
  Proof. reflexivity. Qed.

  Lemma ana_body_args : forall b A1 A2 name lines annot R,
    argpairs A1 = argpairs A2 -> List.length (fst A1) = List.length (fst A2) ->
    ana_body H mx b name lines annot A1 R = ana_body H mx b name lines annot A2 R.
  Proof. intros [vars exts sts] A1 A2 name lines annot R Ea El. rewrite !ana_body_eq, Ea, El. reflexivity. Qed.

  Lemma ana_bodies_args : forall bds A1 A2 name lines annot R,
    argpairs A1 = argpairs A2 -> List.length (fst A1) = List.length (fst A2) ->
    ana_bodies H mx bds name lines annot A1 R = ana_bodies H mx bds name lines annot A2 R.
  Proof.
    induction bds as [|b r IH]; intros A1 A2 name lines annot R Ea El; [reflexivity|].
    rewrite !ana_bodies_cons, (ana_body_args b A1 A2 name lines annot R Ea El). unfold fin_cons.
    destruct (ana_body H mx b name lines annot A2 R) as [e|[t R']]; [reflexivity|].
    rewrite (IH A1 A2 name lines annot R' Ea El). reflexivity.
  Qed.

  Theorem ana_args : forall f A1 A2 R,
    argpairs A1 = argpairs A2 -> List.length (fst A1) = List.length (fst A2) -> ana H mx f A1 R = ana H mx f A2 R.
  Proof.
    intros [name tag raises lines params annot is_class bds] A1 A2 R Ea El.
    rewrite !ana_eq, El. destruct is_class.
    - rewrite (ana_bodies_args bds A1 A2 name lines None R Ea El). reflexivity.
    - destruct bds as [|b r]; [reflexivity|]. rewrite (ana_body_args b A1 A2 name lines annot R Ea El). reflexivity.
  Qed.

  (* C02: no call-site context is needed when every parameter is bound to a hashable value *)
  Theorem ctx_free_when_args_known : forall f named k1 k2 R,
    all_known named = true -> ana H mx f (named, k1) R = ana H mx f (named, k2) R.
  Proof. intros f named k1 k2 R Hk. apply ana_args; [apply argpairs_known; exact Hk|reflexivity]. Qed.

  (* non-vacuity: a one-argument call whose argument is a literal; a zero-argument function *)
  Example ctx_free_one_literal_arg : forall f h R,
    ana H mx f ([(bs "x", Some h)], None) R = ana H mx f ([(bs "x", Some h)], Some (bs "any call site")) R.
  Proof. intros f h R. apply ctx_free_when_args_known. reflexivity. Qed.

  Example ctx_free_zero_args : forall f k1 k2 R, ana H mx f ([], k1) R = ana H mx f ([], k2) R.
  Proof. intros f k1 k2 R. apply ctx_free_when_args_known. reflexivity. Qed.

  Definition map_ana (r : bytes -> bytes) (x : aerr + (fi * resolved)) : aerr + (fi * resolved) :=
    match x with inl e => inl e | inr (t, R) => inr (fi_rename r t, R) end.
  Definition map_anas (r : bytes -> bytes) (x : aerr + (list fi * resolved)) : aerr + (list fi * resolved) :=
    match x with inl e => inl e | inr (ts, R) => inr (map (fi_rename r) ts, R) end.
  Definition map3 (r : bytes -> bytes) (a : st3) : st3 :=
    match a with (i, l, R) => (map (fi_rename r) i, l, R) end.
  Definition map_st3 (r : bytes -> bytes) (x : aerr + st3) : aerr + st3 :=
    match x with inl e => inl e | inr a => inr (map3 r a) end.

  Lemma fin_class_rename : forall r lines name nargs x,
    fin_class lines (r name) nargs (map_anas r x) = map_ana r (fin_class lines name nargs x).
  Proof.
    intros r lines name nargs [e|[mfis R']]; [reflexivity|].
    unfold map_anas, fin_class. rewrite fis_siglist_rename.
    destruct (hash_lines H mx lines) as [e|bsig]; [reflexivity|].
    destruct (X H ((k_body_sig, bsig) :: fis_siglist mfis)) as [s|]; reflexivity.
  Qed.

  Lemma fin_fun_rename : forall r annot x, fin_fun annot (map_ana r x) = map_ana r (fin_fun annot x).
  Proof. intros r annot [e|[t R']]; [reflexivity|]. unfold map_ana, fin_fun. rewrite fi_sig_rename. reflexivity. Qed.

  Lemma fin_cons_rename : forall r x k k',
    (forall R', k' R' = map_anas r (k R')) -> fin_cons (map_ana r x) k' = map_anas r (fin_cons x k).
  Proof.
    intros r [e|[t R']] k k' Hk; [reflexivity|].
    unfold map_ana, fin_cons. rewrite Hk. destruct (k R') as [e|[xs R'']]; reflexivity.
  Qed.

  Lemma fin_body_rename : forall r lines annot name nargs ap ep vp x,
    fin_body lines annot (r name) nargs ap ep vp (map_st3 r x) =
    map_ana r (fin_body lines annot name nargs ap ep vp x).
  Proof.
    intros r lines annot name nargs ap ep vp [e|[[inters loads] R']]; [reflexivity|].
    unfold map_st3, map3, fin_body. rewrite fis_siglist_rename.
    destruct (hash_lines H mx lines) as [e|bsig]; [reflexivity|].
    destruct (X H ([(k_body_sig, bsig)] ++ ap ++ dep_pairs loads ++ fis_siglist inters ++ ep ++ vp)) as [s|];
      reflexivity.
  Qed.

  Lemma call_ctx_rename : forall r lines line eline isig inters loads,
    call_ctx H mx lines line eline isig (map (fi_rename r) inters) loads =
    call_ctx H mx lines line eline isig inters loads.
  Proof. intros. unfold call_ctx. rewrite fis_siglist_rename. reflexivity. Qed.

  Lemma call_g_rename : forall r g cr nr post post' R,
    (forall A R0, ana H mx (rename_fn r g) A R0 = map_ana r (ana H mx g A R0)) ->
    (forall t R', post' (fi_rename r t) R' = map3 r (post t R')) ->
    call_g (rename_fn r g) cr nr post' R = map_st3 r (call_g g cr nr post R).
  Proof.
    intros r g cr nr post post' R IHg Hpost. unfold call_g.
    destruct cr as [e|c]; [reflexivity|].
    destruct nr as [e|named]; [reflexivity|].
    rewrite IHg. destruct (ana H mx g (named, Some c) R) as [e|[t R']]; [reflexivity|].
    unfold map_ana, map_st3. rewrite Hpost. reflexivity.
  Qed.

  Section Rename.
    Variable r : bytes -> bytes.

    Definition RN_fn (f : fn) : Prop :=
      forall A R, ana H mx (rename_fn r f) A R = map_ana r (ana H mx f A R).
    Definition RN_body (b : body) : Prop :=
      forall name lines annot A R,
        ana_body H mx (rename_body r b) (r name) lines annot A R =
        map_ana r (ana_body H mx b name lines annot A R).
    (* the list of method bodies of a class, and the first body (the one a function uses) *)
    Definition RN_bodies (bds : bodies) : Prop :=
      (forall name lines annot A R,
        ana_bodies H mx (rename_bodies r bds) (r name) lines annot A R =
        map_anas r (ana_bodies H mx bds name lines annot A R)) /\
      match bds with BNil => True | BCons b _ => RN_body b end.
    Definition RN_steps (sts : steps) : Prop :=
      forall lines isig acc,
        ana_steps H mx (rename_steps r sts) lines isig (map3 r acc) = map_st3 r (ana_steps H mx sts lines isig acc).
    Definition RN_step (s : step) : Prop :=
      forall lines isig acc,
        ana_step H mx (rename_step r s) lines isig (map3 r acc) = map_st3 r (ana_step H mx s lines isig acc).

    Lemma RN_all :
      (forall f, RN_fn f) /\ (forall b, RN_bodies b) /\ (forall b, RN_body b) /\
      (forall s, RN_steps s) /\ (forall s, RN_step s).
    Proof.
      assert (Hcall : forall line eline g, RN_fn g -> forall args, RN_step (SCall line eline g args)).
      { intros line eline g IHg args lines isig [[inters loads] R]. cbn [rename_step map3].
        rewrite !ana_step_SCall, call_ctx_rename. unfold callee_ctx_plain. rewrite fn_params_rename.
        apply call_g_rename; [exact IHg|]. intros t R'. cbn [map3]. rewrite map_app. reflexivity. }
      apply prog_mutind.
      - intros name tag raises lines params annot is_class bds [IHl IHb] A R.
        cbn [rename_fn]. rewrite !ana_eq. destruct is_class.
        + rewrite IHl. apply fin_class_rename.
        + destruct bds as [|b t]; [reflexivity|]. cbn [rename_bodies]. rewrite IHb. apply fin_fun_rename.
      - split; [|exact I]. intros name lines annot A R. reflexivity.
      - intros b IHb t [IHt _]. split; [|exact IHb]. intros name lines annot A R.
        cbn [rename_bodies]. rewrite !ana_bodies_cons, IHb. apply fin_cons_rename. intros R'. apply IHt.
      - intros vars exts sts IH name lines annot A R. cbn [rename_body]. rewrite !ana_body_eq.
        destruct (argpairs A) as [e|ap]; [reflexivity|].
        destruct (varpairs H mx vars) as [e|vp]; [reflexivity|].
        rewrite <- fin_body_rename. f_equal. exact (IH lines _ ([], [], R)).
      - intros lines isig acc. reflexivity.
      - intros s IHs t IHt lines isig acc. cbn [rename_steps]. rewrite !ana_steps_cons, IHs.
        destruct (ana_step H mx s lines isig acc) as [e|acc']; [reflexivity|]. apply IHt.
      - exact Hcall.
      - (* a by-name mention is analysed as a zero-argument call on one line *)
        intros line g IHg ex. exact (Hcall line line g IHg []).
      - intros g _ lines isig acc. cbn [rename_step]. rewrite !ana_step_SApply. reflexivity.
      - intros line eline p g IHg pos kw lines isig [[inters loads] R]. cbn [rename_step map3].
        rewrite !ana_step_SKeep, call_ctx_rename, fn_params_rename.
        apply call_g_rename; [exact IHg|]. intros t R'.
        cbn [map3]. rewrite map_app, fi_set_path_rename, fi_sig_rename. reflexivity.
      - intros p lines isig [[inters loads] R]. cbn [rename_step map3]. rewrite !ana_step_SLoad.
        destruct (rlookup p R) as [sg|]; reflexivity.
    Qed.
  End Rename.

  (* C02 / C03: the canonical path of a function is only copied into the tree *)
  Theorem sig_name_independent : forall r f A R, ana H mx (rename_fn r f) A R = map_ana r (ana H mx f A R).
  Proof. intros r f. exact (proj1 (RN_all r) f). Qed.

  Corollary store_paths_name_independent : forall r f A R x R',
    ana H mx f A R = inr (x, R') ->
    exists x', ana H mx (rename_fn r f) A R = inr (x', R') /\
               all_store_paths x' = all_store_paths x /\ fi_sig x' = fi_sig x.
  Proof.
    intros r f A R x R' Hana. exists (fi_rename r x).
    rewrite sig_name_independent, Hana. split; [reflexivity|]. split.
    - apply all_store_paths_rename.
    - apply fi_sig_rename.
  Qed.

  Lemma call_g_strip : forall g cr nr post R,
    (forall A R0, ana H mx (strip_fn g) A R0 = ana H mx g A R0) ->
    call_g (strip_fn g) cr nr post R = call_g g cr nr post R.
  Proof.
    intros g cr nr post R IHg. unfold call_g.
    destruct cr as [e|c]; [reflexivity|].
    destruct nr as [e|named]; [reflexivity|].
    rewrite IHg. reflexivity.
  Qed.

  Definition ST_fn (f : fn) : Prop := forall A R, ana H mx (strip_fn f) A R = ana H mx f A R.
  Definition ST_body (b : body) : Prop :=
    forall name lines annot A R,
      ana_body H mx (strip_body b) name lines annot A R = ana_body H mx b name lines annot A R.
  Definition ST_bodies (bds : bodies) : Prop :=
    (forall name lines annot A R,
       ana_bodies H mx (strip_bodies bds) name lines annot A R = ana_bodies H mx bds name lines annot A R) /\
    match bds with BNil => True | BCons b _ => ST_body b end.
  Definition ST_steps (sts : steps) : Prop :=
    forall lines isig acc, ana_steps H mx (strip_steps sts) lines isig acc = ana_steps H mx sts lines isig acc.
  Definition ST_step (s : step) : Prop :=
    forall lines isig acc, ana_step H mx (strip_step s) lines isig acc = ana_step H mx s lines isig acc.

  Lemma ST_all :
    (forall f, ST_fn f) /\ (forall b, ST_bodies b) /\ (forall b, ST_body b) /\
    (forall s, ST_steps s) /\ (forall s, ST_step s).
  Proof.
    assert (Hcall : forall line eline g, ST_fn g -> forall args, ST_step (SCall line eline g args)).
    { intros line eline g IHg args lines isig [[inters loads] R]. cbn [strip_step].
      rewrite !ana_step_SCall, map_length. unfold callee_ctx_plain. rewrite fn_params_strip.
      apply call_g_strip. exact IHg. }
    apply prog_mutind.
    - intros name tag raises lines params annot is_class bds [IHl IHb] A R.
      cbn [strip_fn]. rewrite !ana_eq. destruct is_class.
      + rewrite IHl. reflexivity.
      + destruct bds as [|b t]; [reflexivity|]. cbn [strip_bodies]. rewrite IHb. reflexivity.
    - split; [|exact I]. intros name lines annot A R. reflexivity.
    - intros b IHb t [IHt _]. split; [|exact IHb]. intros name lines annot A R.
      cbn [strip_bodies]. rewrite !ana_bodies_cons, IHb. unfold fin_cons.
      destruct (ana_body H mx b name lines annot A R) as [e|[x R']]; [reflexivity|]. rewrite IHt. reflexivity.
    - intros vars exts sts IH name lines annot A R. cbn [strip_body]. rewrite !ana_body_eq.
      destruct (argpairs A) as [e|ap]; [reflexivity|].
      destruct (varpairs H mx vars) as [e|vp]; [reflexivity|]. rewrite IH. reflexivity.
    - intros lines isig acc. reflexivity.
    - intros s IHs t IHt lines isig acc. cbn [strip_steps]. rewrite !ana_steps_cons, IHs.
      destruct (ana_step H mx s lines isig acc) as [e|acc']; [reflexivity|]. apply IHt.
    - exact Hcall.
    - intros line g IHg ex. exact (Hcall line line g IHg []).
    - intros g _ lines isig acc. cbn [strip_step]. rewrite !ana_step_SApply. reflexivity.
    - intros line eline p g IHg pos kw lines isig [[inters loads] R]. cbn [strip_step].
      rewrite !ana_step_SKeep, fn_params_strip, !map_map. apply call_g_strip. exact IHg.
    - intros p lines isig acc. reflexivity.
  Qed.

  (* C03: execution-only annotations (tag, raised exception, argument expressions, exec flag) are not read *)
  Theorem sig_ignores_exec_info : forall f A R, ana H mx (strip_fn f) A R = ana H mx f A R.
  Proof. exact (proj1 ST_all). Qed.
End S.

Definition good (s' s : state) (tags : list bytes) : Prop :=
  s_blobs s' = s_blobs s /\ exists l, s_log s' = s_log s ++ l /\ incl l tags.

Lemma good_refl : forall s tags, good s s tags.
Proof.
  intros s tags. split; [reflexivity|]. exists []. split.
  - rewrite app_nil_r. reflexivity.
  - apply incl_nil_l.
Qed.

Lemma good_weaken : forall s' s t1 t2, incl t1 t2 -> good s' s t1 -> good s' s t2.
Proof.
  intros s' s t1 t2 Hi [Hb [l [Hl Hin]]]. split; [exact Hb|]. exists l. split; [exact Hl|].
  eapply incl_tran; [exact Hin|exact Hi].
Qed.

Lemma good_trans : forall s2 s1 s t1 t2, good s1 s t1 -> good s2 s1 t2 -> good s2 s (t1 ++ t2).
Proof.
  intros s2 s1 s t1 t2 [Hb1 [l1 [Hl1 Hi1]]] [Hb2 [l2 [Hl2 Hi2]]]. split.
  - rewrite Hb2. exact Hb1.
  - exists (l1 ++ l2). split.
    + rewrite Hl2, Hl1. rewrite app_assoc. reflexivity.
    + apply incl_app; [apply incl_appl; exact Hi1 | apply incl_appr; exact Hi2].
Qed.

Lemma good_log : forall s' s tags tag, good s' s tags -> good (st_log tag s') s (tag :: tags).
Proof.
  intros s' s tags tag [Hb [l [Hl Hi]]]. split; [exact Hb|].
  exists (l ++ [tag]). split.
  - cbn [st_log s_log]. rewrite Hl. rewrite app_assoc. reflexivity.
  - apply incl_app.
    + apply incl_tl. exact Hi.
    + intros y [Hy|[]]. subst y. left. reflexivity.
Qed.

Lemma akp_blobs : forall sp s s', s_blobs s' = s_blobs s -> all_keys_present sp s -> all_keys_present sp s'.
Proof.
  intros sp s s' Hb Hk p k Hl. rewrite Hb. exact (Hk p k Hl).
Qed.

Section Rerun.
  Variable sp : list (bytes * bytes).

  Definition RR_fn (f : fn) : Prop :=
    forall pvals s, all_keys_present sp s -> paths_in_fn sp f ->
      good (snd (exec_fn (Dds sp) f pvals s)) s (plain_tags_fn f).
  Definition RR_steps (sts : steps) : Prop :=
    forall en s, all_keys_present sp s -> paths_in_steps sp sts ->
      good (snd (exec_steps (Dds sp) sts en s)) s (plain_tags_steps sts).

  Lemma kept_call_good : forall g p pv en s tags,
    all_keys_present sp s -> (exists k, blookup p sp = Some k) ->
    good (snd (kept_call (Dds sp) en s g p pv)) s tags.
  Proof.
    intros g p pv en s tags Hk [k Hp]. unfold kept_call. rewrite Hp.
    destruct (Hk p k Hp) as [v Hv]. rewrite Hv. apply good_refl.
  Qed.

  (* a call g(...), apply(g) or executed by-name mention: what [paths_in_step] asks of it, which tags it may log *)
  Lemma call_good : forall g pv en s,
    RR_fn g -> all_keys_present sp s ->
    match fn_annot g with Some p => exists k, blookup p sp = Some k | None => paths_in_fn sp g end ->
    good (snd (call_opt (Dds sp) en s g pv)) s (match fn_annot g with Some _ => [] | None => plain_tags_fn g end).
  Proof.
    intros g [pv|] en s IHg Hk Hp; [|apply good_refl]. unfold call_opt, user_call.
    destruct (fn_annot g) as [p|]; [apply kept_call_good; assumption|].
    specialize (IHg pv s Hk Hp). destruct (exec_fn (Dds sp) g pv s) as [[v| | |] s1]; exact IHg.
  Qed.

  Lemma step_good : forall st en s,
    view_ok RR_fn (step_view st en) -> all_keys_present sp s -> paths_in_step sp st ->
    good (snd (exec_view (Dds sp) en s (step_view st en))) s (plain_tags_step st).
  Proof.
    intros [l e g args|l g [|]|g|l e p g pos kw|p] en s Hv Hk Hp; cbn [step_view exec_view plain_tags_step].
    - (* SCall *) apply call_good; assumption.
    - (* SRef, executed *) apply call_good; assumption.
    - (* SRef, skipped *) apply good_refl.
    - (* SApply *) apply call_good; assumption.
    - (* SKeep: its path is requested, so it is served from the store *)
      unfold keep_opt. destruct (bind_args _ _ _ _) as [pv|]; [apply kept_call_good; assumption|apply good_refl].
    - (* SLoad: reads only *) unfold load_step. repeat destruct (blookup _ _); apply good_refl.
  Qed.

  Lemma RR_cons : forall st r, (forall en, view_ok RR_fn (step_view st en)) -> RR_steps r -> RR_steps (SCons st r).
  Proof.
    intros st r Hv IHr en s Hk [Hps Hpr]. rewrite exec_steps_cons, exec_step_view.
    pose proof (step_good st en s (Hv en) Hk Hps) as G.
    destruct (exec_view (Dds sp) en s (step_view st en)) as [[o|en'] s']; cbn [snd] in *.
    - eapply good_weaken; [|exact G]. apply incl_appl, incl_refl.
    - eapply good_trans; [exact G|].
      apply IHr; [|exact Hpr]. destruct G as [Hb _]. eapply akp_blobs; [exact Hb|exact Hk].
  Qed.

  Lemma RR_fn_all : forall f, RR_fn f.
  Proof.
    apply (prog_ind_view RR_fn RR_steps); [| |exact RR_cons].
    - intros n tag raises l p a c bds IH pvals s Hk Hp. rewrite exec_fn_eq.
      destruct bds as [|[vars exts sts] r]; [apply good_refl|]. rewrite exec_body_eq. destruct Hp as [Hps _].
      pose proof (IH (Env pvals (map snd vars) []) s Hk Hps) as G.
      destruct (exec_steps (Dds sp) sts _ s) as [[o|en] s']; cbn [snd] in *.
      + eapply good_weaken; [|exact G]. apply incl_tl, incl_refl.
      + apply good_log. exact G.
    - intros en s Hk Hp. apply good_refl.
  Qed.

  Lemma RR_steps_all : forall sts, RR_steps sts.
  Proof.
    induction sts as [|st r IH]; [intros en s Hk Hp; apply good_refl|].
    apply RR_cons; [|exact IH]. intros en. destruct (step_view st en); cbn [view_ok]; try exact I; apply RR_fn_all.
  Qed.
End Rerun.

(* if every requested key already has a blob, running f inside the evaluation executes only the bodies reached through
   plain calls: no body behind a dds.keep or a data function runs, and the store is not written *)
Theorem rerun_executes_no_kept_body : forall f pvals s sp,
  all_keys_present sp s -> paths_in_fn sp f ->
  let '(o, s') := exec_fn (Dds sp) f pvals s in
  s_blobs s' = s_blobs s /\ exists l, s_log s' = s_log s ++ l /\ incl l (plain_tags_fn f).
Proof.
  intros f pvals s sp Hk Hp.
  pose proof (RR_fn_all sp f pvals s Hk Hp) as G.
  destruct (exec_fn (Dds sp) f pvals s) as [o s']. exact G.
Qed.

Corollary rerun_steps_no_kept_body : forall sts en s sp,
  all_keys_present sp s -> paths_in_steps sp sts ->
  good (snd (exec_steps (Dds sp) sts en s)) s (plain_tags_steps sts).
Proof. intros sts en s sp. apply RR_steps_all. Qed.

(* non-vacuity: a root with a plain callee and a kept node (whose body is not run) *)
Definition ex_leaf (name tag : string) : fn :=
  Fn (bs name) (bs tag) None [] [] None false (BCons (Body [] [] SNil) BNil).
Definition ex_root : fn :=
  Fn (bs "m/f") (bs "f") None [] [] None false
     (BCons (Body [] [] (SCons (SCall 1 1 (ex_leaf "m/h" "h") [])
                        (SCons (SKeep 2 2 (bs "/p") (ex_leaf "m/g" "g") [] []) SNil))) BNil).
Definition ex_sp : list (bytes * bytes) := [(bs "/p", bs "key")].
Definition ex_state : state := State [(bs "key", RVal (VInt 7))] [] [] [].

Example ex_paths_in : paths_in_fn ex_sp ex_root.
Proof.
  change (((True /\ True) /\ ((exists k, blookup (bs "/p") ex_sp = Some k) /\ True)) /\ True).
  repeat split. exists (bs "key"). reflexivity.
Qed.

Example ex_keys_present : all_keys_present ex_sp ex_state.
Proof.
  intros p k Hl.
  change (blookup p ex_sp) with (if bytes_eqb p (bs "/p") then Some (bs "key") else None) in Hl.
  destruct (bytes_eqb p (bs "/p")); [|discriminate Hl].
  injection Hl as Hl. subst k. exists (RVal (VInt 7)). reflexivity.
Qed.

Example ex_rerun_log :
  s_log (snd (exec_fn (Dds ex_sp) ex_root [] ex_state)) = [bs "h"; bs "f"] /\
  plain_tags_fn ex_root = [bs "f"; bs "h"] /\
  s_blobs (snd (exec_fn (Dds ex_sp) ex_root [] ex_state)) = s_blobs ex_state.
Proof. vm_compute. repeat split. Qed.

Example ex_rerun_instance :
  let '(o, s') := exec_fn (Dds ex_sp) ex_root [] ex_state in
  s_blobs s' = s_blobs ex_state /\ exists l, s_log s' = s_log ex_state ++ l /\ incl l (plain_tags_fn ex_root).
Proof. apply rerun_executes_no_kept_body; [exact ex_keys_present | exact ex_paths_in]. Qed.

Section RootHit.
  Variable H : bytes -> bytes.
  Variable mx : option N.

  (* C02: a hit on the root's own key returns the blob and runs nothing *)
  Theorem root_hit_executes_nothing : forall c f sty pos kw s x sp v,
    analysis H mx c f sty pos kw s = inr (x, sp) -> has_stage Eval (c_stages c) = true ->
    blookup (fi_sig x) (s_blobs s) = Some v ->
    fst (dds_call H mx c f sty pos kw s) = Ret v /\ s_log (snd (dds_call H mx c f sty pos kw s)) = s_log s /\
    s_blobs (snd (dds_call H mx c f sty pos kw s)) = s_blobs s.
  Proof.
    intros c f sty pos kw s x sp v Hana Hst Hblob.
    rewrite dds_call_eq, Hana, Hst, Hblob. unfold commit.
    destruct (has_stage PathCommit (c_stages c)); repeat split.
  Qed.
End RootHit.

Print Assumptions sig_name_independent.
Print Assumptions ctx_free_when_args_known.
Print Assumptions rerun_executes_no_kept_body.
Print Assumptions store_paths_name_independent.
Print Assumptions sig_ignores_exec_info.
Print Assumptions root_hit_executes_nothing.
