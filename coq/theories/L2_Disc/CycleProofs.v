(* Proofs about the cycle / nested-eval detection model of Cycle.v: what each verdict of a visit means ([visit_spec]),
   hence of the analysis ([analyse_spec]); soundness of the two error verdicts, completeness of acceptance (the
   completion cache never hides a cycle), sufficiency of the fuel and the characterisation of rejection are its cases. *)
From Coq Require Import List Ascii String Bool Arith Lia.
From DDS Require Import Base.Bytes Base.BytesFacts L2_Disc.Cycle.
Import ListNotations.

(* the inner loop of [visit], named *)
Definition go (fu : nat) (g : graph) (stack : list bytes) (f : bytes) : list edge -> list bytes -> verdict :=
  fix go (es : list edge) (done : list bytes) : verdict :=
    match es with
    | [] => VOk (f :: done)
    | ELoad :: r => go r done
    | EEval :: _ => VEvalInEval
    | ETo _ t :: r =>
      if memb t stack then VCircular
      else match visit fu g (stack ++ [t]) done t with
           | VOk done' => go r done'
           | v => v
           end
    end.

Lemma visit_S : forall fu g stack done f,
  visit (S fu) g stack done f =
  if memb f done then VOk done else go fu g stack f (edges_of g f) done.
Proof. reflexivity. Qed.

Section Visit.
  Variable g : graph.

  (* the completion cache only holds nodes whose targets are in it, that have no EEval interaction and lie on no cycle *)
  Definition safe (l : list bytes) : Prop :=
    forall x, In x l ->
      (forall y, has_edge g x y -> In y l) /\ ~ In EEval (edges_of g x) /\ (forall y, has_edge g x y -> ~ reach g y x).

  Lemma safe_reach : forall l, safe l -> forall x y, reach g x y -> In x l -> In y l.
  Proof.
    intros l Hs x y Hr. induction Hr as [a | a b c Hab IH Hbc]; intros Hx; [exact Hx|].
    apply (Hs b); [apply IH; exact Hx | exact Hbc].
  Qed.

  (* a node whose targets are all in the cache lies on no cycle: a path back to it would put it in the cache already *)
  Lemma safe_cons : forall f l, safe l -> (forall t, has_edge g f t -> In t l) -> ~ In EEval (edges_of g f) -> safe (f :: l).
  Proof.
    intros f l Hs Htg Hne x [<- | Hx].
    - split; [auto using in_cons | split; [exact Hne|]]. intros y He Hr.
      apply (Hs f (safe_reach l Hs y f Hr (Htg y He))) with y; assumption.
    - destruct (Hs x Hx) as [Hc Hrest]. split; [auto using in_cons | exact Hrest].
  Qed.

  Lemma safe_ok : forall l root, safe l -> In root l -> ~ cyclic_from g root /\ ~ eval_from g root.
  Proof.
    intros l root Hs Hin. split.
    - intros [a [b [Hra [Hab Hba]]]]. apply (Hs a (safe_reach l Hs root a Hra Hin)) with b; assumption.
    - intros [a [Hra Hev]]. apply (Hs a (safe_reach l Hs root a Hra Hin)). exact Hev.
  Qed.

  Definition ok_edge (done : list bytes) (e : edge) : Prop :=
    match e with
    | ETo _ t => In t done
    | EEval => False
    | ELoad => True
    end.

  Lemma ok_edge_mono : forall d d' e, incl d d' -> ok_edge d e -> ok_edge d' e.
  Proof. intros d d' [k t | |] Hi Ho; [apply Hi; exact Ho | exact Ho | exact I]. Qed.

  Variable root : bytes.

  (* what a verdict of the visit of f means, when f is reached from the root through the nodes of the stack and the
     cache is safe.  Fuel: the stack is duplicate-free and made of nodes, so the size of the graph bounds its length. *)
  Definition visit_post (fuel : nat) (stack done : list bytes) (f : bytes) (v : verdict) : Prop :=
    match v with
    | VOk d => safe d /\ incl done d /\ In f d
    | VCircular => cyclic_from g root
    | VEvalInEval => eval_from g root
    | VFuel => closed_graph g -> NoDup stack -> incl stack (map fst g) ->
               List.length stack + fuel < List.length g + 2
    end.

  (* the loop over the edges of f, entered with the cache done0: the edges of f that are not in es have been dealt
     with (their targets completed) *)
  Lemma go_spec : forall fu stack f done0,
    (forall stack' done' f', reach g root f' -> (forall s, In s stack' -> reach g s f') -> safe done' ->
       visit_post fu stack' done' f' (visit fu g stack' done' f')) ->
    reach g root f -> (forall s, In s stack -> reach g s f) ->
    forall es done, safe done -> incl done0 done -> incl es (edges_of g f) ->
      (forall e, In e (edges_of g f) -> In e es \/ ok_edge done e) ->
      visit_post (S fu) stack done0 f (go fu g stack f es done).
  Proof.
    intros fu stack f done0 IH Hrf Hst es.
    induction es as [| e r IHr]; intros done Htd Hi0 Hincl Hcond.
    - (* no edge is left: each edge of f has its target in the cache, and none is EEval *)
      assert (Hall : forall e, In e (edges_of g f) -> ok_edge done e).
      { intros e He. destruct (Hcond e He) as [[] | Hok]. exact Hok. }
      split; [|split].
      + apply safe_cons.
        * exact Htd.
        * intros t [k Hk]. exact (Hall (ETo k t) Hk).
        * intros Hk. exact (Hall EEval Hk).
      + apply incl_tl, Hi0.
      + left. reflexivity.
    - apply incl_cons_inv in Hincl. destruct Hincl as [He Hr].
      assert (Hnext : forall d0, safe d0 -> incl done d0 -> ok_edge d0 e ->
                visit_post (S fu) stack done0 f (go fu g stack f r d0)).
      { intros d0 Htd0 Hi Hoe. apply IHr; [exact Htd0 | eapply incl_tran; eassumption | exact Hr|].
        intros e' He'. destruct (Hcond e' He') as [[<- | Hin] | Hok]; auto. right. exact (ok_edge_mono _ _ _ Hi Hok). }
      destruct e as [k t | |]; cbn [go].
      + assert (Hft : has_edge g f t) by (exists k; exact He).
        destruct (memb t stack) eqn:Hm.
        { apply existsb_bytes_eqb in Hm. exists f, t. auto. }
        assert (Hv : visit_post fu (stack ++ [t]) done t (visit fu g (stack ++ [t]) done t)).
        { apply IH; [apply reach_step with f; assumption | | exact Htd].
          intros s Hs. apply in_app_iff in Hs. destruct Hs as [Hs | [<- | []]]; [|apply reach_refl].
          apply reach_step with f; [apply Hst; exact Hs | exact Hft]. }
        destruct (visit fu g (stack ++ [t]) done t) as [d0 | | |]; [| exact Hv | exact Hv |].
        * destruct Hv as [Htd0 [Hi Hin]]. exact (Hnext d0 Htd0 Hi Hin).
        * intros Hcl Hnd Hinc. cbn [visit_post] in Hv. rewrite app_length, <- Nat.add_assoc in Hv.
          apply Hv; [exact Hcl | |].
          -- apply (NoDup_Add (Add_app t stack [])). rewrite app_nil_r. split; [exact Hnd|].
             intros Hin. apply existsb_bytes_eqb in Hin. unfold memb in Hm. congruence.
          -- apply incl_app; [exact Hinc|]. intros s [<- | []]. exact (proj2 Hcl f k t He).
      + exists f. auto.
      + exact (Hnext done Htd (incl_refl _) I).
  Qed.

  Lemma visit_spec : forall fuel stack done f,
    reach g root f -> (forall s, In s stack -> reach g s f) -> safe done ->
    visit_post fuel stack done f (visit fuel g stack done f).
  Proof.
    induction fuel as [| fu IH]; intros stack done f Hrf Hst Htd.
    - intros _ Hnd Hinc. pose proof (NoDup_incl_length Hnd Hinc) as Hle. rewrite map_length in Hle. lia.
    - rewrite visit_S. destruct (memb f done) eqn:Hm.
      + split; [exact Htd | split; [apply incl_refl | apply existsb_bytes_eqb; exact Hm]].
      + apply go_spec; auto using incl_refl.
  Qed.
End Visit.

(* every verdict classified, for any graph and any root: [analyse_spec] has no hypothesis, so an acceptance and the two
   error verdicts are sound whether or not the graph is closed or holds the root.  Closedness is needed only to
   exclude VFuel, which is all [fuel_suffices] and [rejected_iff] use it for; their hypothesis `In root (map fst g)`
   is not used by either proof. *)
Theorem analyse_spec : forall g root,
  match analyse_graph g root with
  | VOk _ => ~ cyclic_from g root /\ ~ eval_from g root
  | VCircular => cyclic_from g root
  | VEvalInEval => eval_from g root
  | VFuel => ~ closed_graph g
  end.
Proof.
  intros g root.
  assert (H : visit_post g root (S (S (List.length g))) [] [] root (analyse_graph g root)).
  { apply visit_spec; [apply reach_refl | intros s [] | intros x []]. }
  destruct (analyse_graph g root) as [d | | |]; cbn [visit_post] in H; auto.
  - destruct H as [Ht [_ Hin]]. apply safe_ok with d; assumption.
  - intros Hcl. specialize (H Hcl (NoDup_nil _) (incl_nil_l _)). simpl in H. lia.
Qed.

Theorem circular_sound : forall g root, analyse_graph g root = VCircular -> cyclic_from g root.
Proof. intros g root E. pose proof (analyse_spec g root) as H. rewrite E in H. exact H. Qed.

Theorem fuel_suffices : forall g root, closed_graph g -> In root (map fst g) -> analyse_graph g root <> VFuel.
Proof. intros g root Hcl _ E. pose proof (analyse_spec g root) as H. rewrite E in H. exact (H Hcl). Qed.

Corollary rejected_iff : forall g root, closed_graph g -> In root (map fst g) ->
  ((analyse_graph g root = VCircular \/ analyse_graph g root = VEvalInEval) <-> (cyclic_from g root \/ eval_from g root)).
Proof.
  intros g root Hcl _. pose proof (analyse_spec g root) as H.
  destruct (analyse_graph g root); [split; [intros [E | E]; discriminate E | tauto] | | | contradiction];
    split; auto.
Qed.

Local Open Scope string_scope.

Example self_reference : analyse_graph [(bs "f", [ETo KRef (bs "f")])] (bs "f") = VCircular.
Proof. vm_compute. reflexivity. Qed.

Example cycle_of_three_through_keep_and_ref :
  analyse_graph [(bs "r", [ETo KCall (bs "a")]); (bs "a", [ETo KKeep (bs "b")]); (bs "b", [ETo KRef (bs "c")]); (bs "c", [ETo KMethod (bs "a")])] (bs "r") = VCircular.
Proof. vm_compute. reflexivity. Qed.

Example diamond_ok : exists d, analyse_graph [(bs "r", [ETo KCall (bs "a"); ETo KCall (bs "b")]); (bs "a", [ETo KCall (bs "c")]); (bs "b", [ETo KCall (bs "c")]); (bs "c", [])] (bs "r") = VOk d.
Proof. eexists. vm_compute. reflexivity. Qed.

Print Assumptions rejected_iff.
