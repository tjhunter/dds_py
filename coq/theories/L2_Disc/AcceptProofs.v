(* The accept-list decision (C14): EvalMainContext.is_authorized_path of dds/_eval_ctx.py, as modelled in Accept.v.
   [try_prefixes_existsb] turns the downward loop of the model into [existsb] over the prefix lengths 0 .. n-1;
   [authorized_iff] is that with n = length + 1: a path is authorised iff one of its dotted prefixes is an accepted package.
   Monotonicity in the accept list and the submodule rule are corollaries of [authorized_iff]. *)
From Coq Require Import List Ascii String Bool Arith Lia.
From DDS Require Import Base.Bytes L2_Disc.Accept.
Import ListNotations.

(* the model tries the prefixes from the longest bound down; a search loop tries them upwards *)
Lemma try_prefixes_existsb : forall n parts accepted,
  try_prefixes n parts accepted = existsb (fun i => mem (dotted (firstn i parts)) accepted) (seq 0 n).
Proof.
  intros n parts accepted. induction n as [|m IH]; [reflexivity|].
  rewrite seq_S, existsb_app. cbn [try_prefixes existsb Nat.add]. rewrite IH, orb_false_r. reflexivity.
Qed.

Lemma try_prefixes_iff : forall n parts accepted,
  try_prefixes n parts accepted = true <->
  exists m, m < n /\ mem (dotted (firstn m parts)) accepted = true.
Proof.
  intros n parts accepted. rewrite try_prefixes_existsb, existsb_exists.
  split; intros [m [Hm Hin]]; exists m; (split; [|exact Hin]); [apply in_seq in Hm | apply in_seq]; lia.
Qed.

Theorem authorized_iff : forall parts accepted,
  is_authorized_path parts accepted = true <->
  exists m, m <= List.length parts /\ mem (dotted (firstn m parts)) accepted = true.
Proof.
  intros parts accepted. unfold is_authorized_path. rewrite try_prefixes_iff.
  split; intros [m [Hm Hin]]; exists m; split; try exact Hin; lia.
Qed.

Theorem authorized_monotone : forall parts acc more,
  is_authorized_path parts acc = true -> is_authorized_path parts (acc ++ more) = true.
Proof.
  intros parts acc more H. apply authorized_iff in H. destruct H as [m [Hm Hin]].
  apply authorized_iff. exists m. split; [exact Hm|]. unfold mem in *. rewrite existsb_app, Hin. reflexivity.
Qed.

Theorem authorized_submodule : forall pkg rest accepted,
  mem (dotted pkg) accepted = true -> is_authorized_path (pkg ++ rest) accepted = true.
Proof.
  intros pkg rest accepted H. apply authorized_iff. exists (List.length pkg). split.
  - rewrite app_length. lia.
  - rewrite firstn_app, Nat.sub_diag, firstn_all. cbn [firstn]. rewrite app_nil_r. exact H.
Qed.

(* the pinned implementation (loop bounded by the number of accepted packages) is refuted: F02 *)
Theorem pinned_refuted : exists parts accepted,
  is_authorized_path_pinned parts accepted = false /\ mem (dotted (firstn 1 parts)) accepted = true.
Proof. exists [bs "pkg"; bs "fun"], [bs "pkg"]. split; reflexivity. Qed.

Example authorized_example :
  is_authorized_path [bs "a"; bs "b"; bs "c"; bs "d"; bs "e"; bs "f"] [bs "zz"; bs "a.b.c.d"] = true.
Proof. reflexivity. Qed.
Example unauthorized_near_miss :
  is_authorized_path [bs "ab"; bs "c"] [bs "a"; bs "ab.cd"; bs "b.ab"] = false.
Proof. reflexivity. Qed.
