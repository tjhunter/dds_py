(* Comparison of two analysis views (used by harness/progs.py:check_discover to compare `discover` with the
   harness-side derivation fn_term): a boolean equality on fn that is proved to imply Leibniz equality, and a
   short description of the first difference. *)
From Coq Require Import List Ascii String ZArith NArith Bool Arith.
From DDS Require Import Base.Bytes Base.BytesFacts L0_Hash.PyVal L1_Args.ArgCtx L2_Disc.MiniPy L3_Sig.Program L2_Disc.Visitors.
Import ListNotations.

Section ListEq.
  Context {A : Type} (eqb : A -> A -> bool).
  Fixpoint list_beq (l1 l2 : list A) : bool :=
    match l1, l2 with
    | [], [] => true
    | x :: r1, y :: r2 => eqb x y && list_beq r1 r2
    | _, _ => false
    end.
  Definition option_beq (a b : option A) : bool :=
    match a, b with
    | None, None => true
    | Some x, Some y => eqb x y
    | _, _ => false
    end.
End ListEq.

Fixpoint pyval_beq (a b : pyval) {struct a} : bool :=
  match a, b with
  | VNone, VNone => true
  | VBool x, VBool y => Bool.eqb x y
  | VInt x, VInt y => Z.eqb x y
  | VFloat x, VFloat y => bytes_eqb x y
  | VStr x, VStr y => bytes_eqb x y
  | VStrBad x, VStrBad y => bytes_eqb x y
  | VCanon x, VCanon y => bytes_eqb x y
  | VList x, VList y =>
    (fix go (l1 l2 : list pyval) {struct l1} : bool :=
       match l1, l2 with
       | [], [] => true
       | p :: r1, q :: r2 => pyval_beq p q && go r1 r2
       | _, _ => false
       end) x y
  | VTuple x, VTuple y =>
    (fix go (l1 l2 : list pyval) {struct l1} : bool :=
       match l1, l2 with
       | [], [] => true
       | p :: r1, q :: r2 => pyval_beq p q && go r1 r2
       | _, _ => false
       end) x y
  | VPath x, VPath y => bytes_eqb x y
  | VDict x, VDict y =>
    (fix go (l1 l2 : list (pyval * pyval)) {struct l1} : bool :=
       match l1, l2 with
       | [], [] => true
       | p :: r1, q :: r2 => pyval_beq (fst p) (fst q) && pyval_beq (snd p) (snd q) && go r1 r2
       | _, _ => false
       end) x y
  | VData c x, VData d y =>
    bytes_eqb c d &&
    (fix go (l1 l2 : list (bytes * pyval)) {struct l1} : bool :=
       match l1, l2 with
       | [], [] => true
       | p :: r1, q :: r2 => bytes_eqb (fst p) (fst q) && pyval_beq (snd p) (snd q) && go r1 r2
       | _, _ => false
       end) x y
  | VDate x, VDate y => bytes_eqb x y
  | VOther, VOther => true
  | _, _ => false
  end.

Definition pkind_beq (a b : pkind) : bool :=
  match a, b with
  | POK, POK | VARKW, VARKW | VARPOS, VARPOS | KWONLY, KWONLY | POSONLY, POSONLY => true
  | _, _ => false
  end.
Definition param_beq (a b : param) : bool :=
  bytes_eqb (p_name a) (p_name b) && pkind_beq (p_kind a) (p_kind b) && option_beq pyval_beq (p_default a) (p_default b).
Definition expr_beq (a b : expr) : bool :=
  match a, b with
  | ELit x, ELit y => pyval_beq x y
  | EParam i, EParam j | ELocal i, ELocal j | EVar i, EVar j => Nat.eqb i j
  | _, _ => false
  end.
Definition aarg_beq (a b : aarg) : bool :=
  match a, b with
  | ALit x, ALit y => pyval_beq x y
  | ARun, ARun => true
  | _, _ => false
  end.
Definition ea_beq (a b : expr * aarg) : bool := expr_beq (fst a) (fst b) && aarg_beq (snd a) (snd b).
Definition kw_beq (a b : bytes * (expr * aarg)) : bool := bytes_eqb (fst a) (fst b) && ea_beq (snd a) (snd b).
Definition var_beq (a b : bytes * pyval) : bool := bytes_eqb (fst a) (fst b) && pyval_beq (snd a) (snd b).
Definition ext_beq (a b : bytes * bytes) : bool := bytes_eqb (fst a) (fst b) && bytes_eqb (snd a) (snd b).

Fixpoint fn_beq (a b : fn) {struct a} : bool :=
  match a, b with
  | Fn n1 t1 r1 l1 p1 a1 c1 b1, Fn n2 t2 r2 l2 p2 a2 c2 b2 =>
    bytes_eqb n1 n2 && bytes_eqb t1 t2 && option_beq bytes_eqb r1 r2 && list_beq bytes_eqb l1 l2
    && list_beq param_beq p1 p2 && option_beq bytes_eqb a1 a2 && Bool.eqb c1 c2 && bodies_beq b1 b2
  end
with bodies_beq (a b : bodies) {struct a} : bool :=
  match a, b with
  | BNil, BNil => true
  | BCons x r, BCons y s => body_beq x y && bodies_beq r s
  | _, _ => false
  end
with body_beq (a b : body) {struct a} : bool :=
  match a, b with
  | Body v1 e1 s1, Body v2 e2 s2 => list_beq var_beq v1 v2 && list_beq ext_beq e1 e2 && steps_beq s1 s2
  end
with steps_beq (a b : steps) {struct a} : bool :=
  match a, b with
  | SNil, SNil => true
  | SCons x r, SCons y s => step_beq x y && steps_beq r s
  | _, _ => false
  end
with step_beq (a b : step) {struct a} : bool :=
  match a, b with
  | SCall l1 e1 g1 a1, SCall l2 e2 g2 a2 => Nat.eqb l1 l2 && Nat.eqb e1 e2 && fn_beq g1 g2 && list_beq expr_beq a1 a2
  | SRef l1 g1 x1, SRef l2 g2 x2 => Nat.eqb l1 l2 && fn_beq g1 g2 && Bool.eqb x1 x2
  | SApply g1, SApply g2 => fn_beq g1 g2
  | SKeep l1 e1 p1 g1 a1 k1, SKeep l2 e2 p2 g2 a2 k2 =>
    Nat.eqb l1 l2 && Nat.eqb e1 e2 && bytes_eqb p1 p2 && fn_beq g1 g2 && list_beq ea_beq a1 a2 && list_beq kw_beq k1 k2
  | SLoad p1, SLoad p2 => bytes_eqb p1 p2
  | _, _ => false
  end.

Lemma list_beq_eq : forall {A} (eqb : A -> A -> bool) (l1 l2 : list A),
  Forall (fun x => forall y, eqb x y = true -> x = y) l1 -> list_beq eqb l1 l2 = true -> l1 = l2.
Proof.
  intros A eqb l1 l2 H. revert l2. induction H; intros [|y r2] E; simpl in E; try discriminate; auto.
  apply andb_true_iff in E. destruct E as [E1 E2]. f_equal; auto.
Qed.
Lemma list_beq_eq' : forall {A} (eqb : A -> A -> bool) (l1 l2 : list A),
  (forall x y, eqb x y = true -> x = y) -> list_beq eqb l1 l2 = true -> l1 = l2.
Proof. intros. eapply list_beq_eq; eauto. apply Forall_forall. auto. Qed.
Lemma option_beq_eq : forall {A} (eqb : A -> A -> bool) (a b : option A),
  (forall x y, eqb x y = true -> x = y) -> option_beq eqb a b = true -> a = b.
Proof. intros A eqb [x|] [y|] H E; simpl in E; try discriminate; auto. f_equal; auto. Qed.

(* A conjunction of boolean tests is split, and each component of the two values is identified by the lemma of its
   type. The hint database holds the lemmas of the types without structure of their own (bytes, numbers, booleans,
   values, parameter kinds) and of lists and options; a proof names the others it needs. *)
Create HintDb beq discriminated.
(* stated apart: `Hint Resolve ->` names its projection after the lemma, and Nat.eqb_eq, Z.eqb_eq would collide *)
Lemma Z_eqb_eq : forall a b, Z.eqb a b = true -> a = b.
Proof. apply Z.eqb_eq. Qed.
#[local] Hint Resolve Bool.eqb_prop Z_eqb_eq list_beq_eq' option_beq_eq : beq.
#[local] Hint Resolve -> bytes_eqb_eq Nat.eqb_eq : beq.
Ltac split_andb :=
  repeat match goal with
         | H : _ && _ = true |- _ => apply andb_true_iff in H; destruct H
         end.
Ltac beq := split_andb; f_equal; eauto with beq.

Lemma pyval_beq_eq : forall a b, pyval_beq a b = true -> a = b.
Proof.
  (* the values without values inside go by [beq]; the four containers remain, each with the hypothesis IH on its
     elements, which [list_beq_eq] takes as a Forall *)
  induction a as [| b | z | b | s | s | s | l IH | l IH | s | kvs IH | c fs IH | r |] using pyval_ind';
    intros b0 E; destruct b0; try discriminate E; cbn [pyval_beq] in E; try solve [beq].
  - (* VList *) apply (list_beq_eq pyval_beq) in E; [congruence | exact IH].
  - (* VTuple *) apply (list_beq_eq pyval_beq) in E; [congruence | exact IH].
  - (* VDict *)
    apply (list_beq_eq (fun p q => pyval_beq (fst p) (fst q) && pyval_beq (snd p) (snd q))) in E; [congruence|].
    eapply Forall_impl; [|exact IH]. intros [k v] [Hk Hv] [k' v'] E'. cbn [fst snd] in *. beq.
  - (* VData *) split_andb. f_equal; [auto with beq|].
    apply (list_beq_eq (fun p q => bytes_eqb (fst p) (fst q) && pyval_beq (snd p) (snd q))) with (l1 := fs); [|assumption].
    eapply Forall_impl; [|exact IH]. intros [k v] Hv [k' v'] E'. cbn [fst snd] in *. beq.
Qed.
#[local] Hint Resolve pyval_beq_eq : beq.

Lemma pkind_beq_eq : forall a b, pkind_beq a b = true -> a = b.
Proof. destruct a, b; simpl; intros; try discriminate; auto. Qed.
#[local] Hint Resolve pkind_beq_eq : beq.
Lemma param_beq_eq : forall a b, param_beq a b = true -> a = b.
Proof. intros [n1 k1 d1] [n2 k2 d2] E. unfold param_beq in E. cbn [p_name p_kind p_default] in E. beq. Qed.
Lemma expr_beq_eq : forall a b, expr_beq a b = true -> a = b.
Proof. destruct a, b; simpl; intros E; try discriminate; beq. Qed.
Lemma aarg_beq_eq : forall a b, aarg_beq a b = true -> a = b.
Proof. destruct a, b; simpl; intros E; try discriminate; beq. Qed.
Lemma ea_beq_eq : forall a b, ea_beq a b = true -> a = b.
Proof.
  intros [e1 a1] [e2 a2] E. unfold ea_beq in E. cbn [fst snd] in E. split_andb. f_equal; auto using expr_beq_eq, aarg_beq_eq.
Qed.
Lemma kw_beq_eq : forall a b, kw_beq a b = true -> a = b.
Proof.
  intros [n1 x1] [n2 x2] E. unfold kw_beq in E. cbn [fst snd] in E. split_andb. f_equal; auto using ea_beq_eq with beq.
Qed.
Lemma var_beq_eq : forall a b, var_beq a b = true -> a = b.
Proof. intros [n1 x1] [n2 x2] E. unfold var_beq in E. cbn [fst snd] in E. beq. Qed.
Lemma ext_beq_eq : forall a b, ext_beq a b = true -> a = b.
Proof. intros [n1 x1] [n2 x2] E. unfold ext_beq in E. cbn [fst snd] in E. beq. Qed.

Lemma prog_beq_eq :
  (forall a b, fn_beq a b = true -> a = b) /\
  (forall a b, bodies_beq a b = true -> a = b) /\
  (forall a b, body_beq a b = true -> a = b) /\
  (forall a b, steps_beq a b = true -> a = b) /\
  (forall a b, step_beq a b = true -> a = b).
Proof.
  apply prog_mutind.
  - (* Fn *) intros n t r l p a c b IHb [] E. simpl in E. split_andb.
    f_equal; eauto using param_beq_eq with beq.
  - (* BNil *) intros [|] E; [reflexivity | discriminate E].
  - (* BCons *) intros x IHx r IHr [|] E; [discriminate E|]. simpl in E. split_andb. f_equal; auto.
  - (* Body *) intros v e s IHs [] E. simpl in E. split_andb.
    f_equal; eauto using var_beq_eq, ext_beq_eq with beq.
  - (* SNil *) intros [|] E; [reflexivity | discriminate E].
  - (* SCons *) intros x IHx r IHr [|] E; [discriminate E|]. simpl in E. split_andb. f_equal; auto.
  - (* SCall *) intros l e g IHg a [] E; try discriminate E. simpl in E. split_andb.
    f_equal; eauto using expr_beq_eq with beq.
  - (* SRef *) intros l g IHg x [] E; try discriminate E. simpl in E. split_andb.
    f_equal; auto with beq.
  - (* SApply *) intros g IHg [] E; try discriminate E. f_equal; auto.
  - (* SKeep *) intros l e p g IHg a k [] E; try discriminate E. simpl in E. split_andb.
    f_equal; eauto using ea_beq_eq, kw_beq_eq with beq.
  - (* SLoad *) intros p [] E; try discriminate E. f_equal; auto with beq.
Qed.

Theorem fn_beq_sound : forall a b, fn_beq a b = true -> a = b.
Proof. exact (proj1 prog_beq_eq). Qed.

(* description of the first difference (diagnostics only) *)
Local Open Scope string_scope.
Definition step_kind (s : step) : string :=
  match s with
  | SCall l _ g _ => "SCall@" ++ show (dec_nat l) ++ ":" ++ show (fn_tag g)
  | SRef l g x => "SRef@" ++ show (dec_nat l) ++ ":" ++ show (fn_tag g) ++ (if x then ":exec" else ":noexec")
  | SApply g => "SApply:" ++ show (fn_tag g)
  | SKeep l e p g _ _ => "SKeep@" ++ show (dec_nat l) ++ "-" ++ show (dec_nat e) ++ ":" ++ show (fn_tag g)
  | SLoad p => "SLoad:" ++ show p
  end.

Fixpoint first_step_diff (i : nat) (a b : list step) : string :=
  match a, b with
  | [], [] => "steps equal?"
  | x :: r, y :: s =>
    if step_beq x y then first_step_diff (S i) r s
    else "step " ++ show (dec_nat i) ++ ": got " ++ step_kind x ++ " expected " ++ step_kind y ++
         (match x, y with
          | SCall _ _ g1 a1, SCall _ _ g2 a2 =>
            if fn_beq g1 g2 then (if list_beq expr_beq a1 a2 then "" else " (args differ)") else " (callee differs)"
          | SKeep _ _ p1 g1 a1 k1, SKeep _ _ p2 g2 a2 k2 =>
            if fn_beq g1 g2 then
              (if list_beq ea_beq a1 a2 then (if list_beq kw_beq k1 k2 then "" else " (kw differ)") else " (pos differ)")
            else " (callee differs)"
          | SRef _ g1 _, SRef _ g2 _ | SApply g1, SApply g2 => if fn_beq g1 g2 then "" else " (callee differs)"
          | _, _ => ""
          end)
  | x :: _, [] => "step " ++ show (dec_nat i) ++ ": extra " ++ step_kind x
  | [], y :: _ => "step " ++ show (dec_nat i) ++ ": missing " ++ step_kind y
  end.

Definition names_str (l : list bytes) : string := show (join (bs ",") l).

Definition fn_diff (a b : fn) : string :=
  if negb (bytes_eqb (fn_name a) (fn_name b)) then "name differs"
  else if negb (bytes_eqb (fn_tag a) (fn_tag b)) then "tag differs"
  else if negb (option_beq bytes_eqb (fn_raises a) (fn_raises b)) then "raises differs"
  else if negb (list_beq bytes_eqb (fn_lines a) (fn_lines b)) then "lines differ"
  else if negb (list_beq param_beq (fn_params a) (fn_params b)) then "params differ"
  else if negb (option_beq bytes_eqb (fn_annot a) (fn_annot b)) then "annot differs"
  else if negb (Bool.eqb (fn_is_class a) (fn_is_class b)) then "is_class differs"
  else
    match fn_bodies a, fn_bodies b with
    | BCons (Body v1 e1 s1) r1, BCons (Body v2 e2 s2) r2 =>
      if negb (list_beq var_beq v1 v2) then
        "vars differ: got [" ++ names_str (map fst v1) ++ "] expected [" ++ names_str (map fst v2) ++ "]"
      else if negb (list_beq ext_beq e1 e2) then
        "exts differ: got [" ++ names_str (map fst e1) ++ "] expected [" ++ names_str (map fst e2) ++ "]"
      else if negb (steps_beq s1 s2) then first_step_diff 0 (list_of_steps s1) (list_of_steps s2)
      else if negb (Nat.eqb (List.length (list_of_bodies r1)) (List.length (list_of_bodies r2))) then
        "number of bodies differs"
      else "a body after the first (a method of a class) differs"
    | _, _ => "number of bodies differs"
    end.

Definition check_same (m : mfn) (expected : fn) : string :=
  if fn_beq (discover m) expected then "ok"
  else "MISMATCH " ++ show (mfn_cname m) ++ ": " ++ fn_diff (discover m) expected.

Theorem check_same_ok : forall m expected, check_same m expected = "ok" -> discover m = expected.
Proof.
  intros m e. unfold check_same. destruct (fn_beq (discover m) e) eqn:E.
  - intros _. apply fn_beq_sound. exact E.
  - simpl. discriminate.
Qed.
