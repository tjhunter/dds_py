(* Theorems about L2_Disc/Visitors.v:discover.  The interactions it produces are characterised WITHOUT the threaded
   `seen` set: a callee name is a first mention iff it is none of the names marked by the earlier statements
   ([marked_before], defined from the syntax alone): [discover_steps_spec], from [stmt_steps_spec], which compares the
   threaded set with the marked names as sets ([same_names]).
   Variables and exts: [disc_vars_In] / [disc_exts_In] say which pairs the two maps hold (the first entry of each name
   among the module variables, split by tracked type; the helpers go to exts), through [dedup_spec] and the fact that
   sorting permutes; [disc_sorted]: both are sorted by local name; [discover_var_index]: a variable read becomes its
   index in the sorted names.
   Arguments: [aarg_of_spec] (ALit exactly for an ast.Constant), [computed_expression_value].
   Call tree: [discover_tree_complete] / [discover_tree_sound]: the functions reachable in the output through the
   analysed steps are the images of those reachable in the syntax ([stmt_has_step] / [step_has_stmt], both read off
   [discover_steps_spec]).
   Shapes: [discover_plain] (no class in the syntax: every node is a function with a single body), [discover_shaped]
   (in general: that, or a class with two bodies), by [mfn_callee_ind]; [plain_shaped]: the first shape is a case of
   the second. *)
From Coq Require Import List Ascii String ZArith NArith Bool Arith Sorted Permutation Lia.
From DDS Require Import Base.Bytes Base.BytesFacts L0_Hash.PyVal L1_Args.ArgCtx L2_Disc.MiniPy L3_Sig.Program L2_Disc.Visitors.
Import ListNotations.

Lemma name_in_cons : forall x y l, name_in x (y :: l) = bytes_eqb x y || name_in x l.
Proof. reflexivity. Qed.

Lemma list_of_steps_of : forall l, list_of_steps (steps_of l) = l.
Proof. induction l; simpl; congruence. Qed.

Lemma bytes_cmp_antisym : forall a b, bytes_cmp b a = CompOpp (bytes_cmp a b).
Proof.
  induction a as [|x a IH]; destruct b as [|y b]; simpl; auto.
  rewrite (N.compare_antisym (N_of_ascii x) (N_of_ascii y)).
  destruct (N.compare (N_of_ascii x) (N_of_ascii y)); simpl; auto.
Qed.
Lemma bytes_leb_total : forall a b, bytes_leb a b = false -> bytes_leb b a = true.
Proof. intros a b. unfold bytes_leb. rewrite (bytes_cmp_antisym a b). destruct (bytes_cmp a b); simpl; congruence. Qed.
Lemma pair_leb_key : forall a b, pair_leb a b = true -> bytes_leb (fst a) (fst b) = true.
Proof.
  intros a b. unfold pair_leb, pair_cmp, bytes_leb. destruct (bytes_cmp (fst a) (fst b)); simpl; congruence.
Qed.
Lemma pair_leb_false_key : forall a b, pair_leb a b = false -> bytes_leb (fst b) (fst a) = true.
Proof.
  intros a b. unfold pair_leb, pair_cmp, bytes_leb. rewrite (bytes_cmp_antisym (fst a) (fst b)).
  destruct (bytes_cmp (fst a) (fst b)); simpl; congruence.
Qed.

Lemma bytes_cmp_eq : forall a b, bytes_cmp a b = Eq -> a = b.
Proof.
  induction a as [|x a IH]; destruct b as [|y b]; simpl; intros H; try discriminate; auto.
  destruct (N.compare (N_of_ascii x) (N_of_ascii y)) eqn:E; try discriminate.
  apply (Ascii.compare_eq_iff x y) in E. f_equal; auto.
Qed.
Lemma bytes_leb_antisym : forall a b, bytes_leb a b = true -> bytes_leb b a = true -> a = b.
Proof.
  intros a b. unfold bytes_leb. rewrite (bytes_cmp_antisym a b).
  destruct (bytes_cmp a b) eqn:E; simpl; try discriminate; intros.
  apply bytes_cmp_eq; auto.
Qed.

Section SortFacts.
  Context {A : Type} (leb : A -> A -> bool) (R : A -> A -> Prop).

  Lemma insert_perm : forall x l, Permutation (insert leb x l) (x :: l).
  Proof.
    intros x. induction l as [|z r IH]; simpl; [reflexivity|].
    destruct (leb x z); [reflexivity|]. rewrite IH. apply perm_swap.
  Qed.
  Lemma isort_perm : forall l, Permutation (isort leb l) l.
  Proof. induction l as [|x r IH]; simpl; [reflexivity|]. rewrite insert_perm, IH. reflexivity. Qed.

  Hypothesis leb_true : forall a b, leb a b = true -> R a b.
  Hypothesis leb_false : forall a b, leb a b = false -> R b a.

  Lemma insert_sorted : forall x l, Sorted R l -> Sorted R (insert leb x l).
  Proof.
    intros x l S. induction S as [|z r S IH Hd]; simpl; [auto|].
    destruct (leb x z) eqn:E; [auto|]. constructor; [exact IH|].
    destruct Hd as [|w r']; simpl; [|destruct (leb x w)]; auto.
  Qed.
  Lemma isort_sorted : forall l, Sorted R (isort leb l).
  Proof. induction l as [|x r IH]; simpl; [constructor | apply insert_sorted; exact IH]. Qed.
End SortFacts.

Definition by_name {B} (a b : bytes * B) : Prop := bytes_leb (fst a) (fst b) = true.

Fixpoint first_entry {B} (n : bytes) (l : list (bytes * B)) : option B :=
  match l with
  | [] => None
  | (k, x) :: r => if bytes_eqb n k then Some x else first_entry n r
  end.

Lemma dedup_spec : forall B (l : list (bytes * B)) seen n x,
  In (n, x) (dedup_names seen l) <-> name_in n seen = false /\ first_entry n l = Some x.
Proof.
  induction l as [|[k y] r IH]; intros seen n x; cbn [dedup_names first_entry].
  - split; [intros [] | intros [_ H]; discriminate H].
  - destruct (name_in k seen) eqn:Hk.
    + (* k seen: its entry is dropped; for n = k both sides are false *)
      rewrite IH. destruct (bytes_eqb_spec n k) as [-> | Hne]; [|reflexivity].
      rewrite Hk. split; intros [H _]; discriminate H.
    + (* k new: its entry is kept and is the first of k; the later ones find k seen *)
      cbn [In]. rewrite IH, name_in_cons. destruct (bytes_eqb_spec n k) as [-> | Hne]; cbn [orb].
      * rewrite Hk. split.
        -- intros [E | [H _]]; [injection E as ->; auto | discriminate H].
        -- intros [_ E]. left. congruence.
      * split; [intros [E | H]; [congruence | exact H] | auto].
Qed.
Lemma dedup_nodup : forall B (l : list (bytes * B)) seen, NoDup (map fst (dedup_names seen l)).
Proof.
  induction l as [|[k y] r IH]; simpl; intros seen; [constructor|].
  destruct (name_in k seen); [apply IH|]. simpl. constructor; [|apply IH].
  intros H. apply in_map_iff in H. destruct H as [[k' x] [<- Hin]]. apply dedup_spec in Hin. destruct Hin as [Hin _].
  cbn [fst] in Hin. rewrite name_in_cons, bytes_eqb_refl in Hin. discriminate Hin.
Qed.
Lemma first_entry_In : forall B (l : list (bytes * B)) n x, first_entry n l = Some x -> In (n, x) l.
Proof.
  induction l as [|[k y] r IH]; simpl; intros n x H; [discriminate|].
  destruct (bytes_eqb_spec n k); [left; congruence | right; auto].
Qed.
Lemma first_entry_nodup : forall B (l : list (bytes * B)) n x,
  NoDup (map fst l) -> In (n, x) l -> first_entry n l = Some x.
Proof.
  induction l as [|[k y] r IH]; simpl; intros n x ND H; [contradiction|].
  inversion ND as [|? ? Hk ND']; subst. destruct H as [H|H].
  - injection H as H1 H2. subst. rewrite bytes_eqb_refl. reflexivity.
  - destruct (bytes_eqb_spec n k) as [-> |]; [|auto].
    exfalso. apply Hk. apply (in_map fst r (k, x) H).
Qed.

Lemma reads_In : forall C (f : mv -> C) (p : mv -> bool) (mvs : list mv) n z,
  In (n, z) (map (fun x => (fst x, f x)) (filter p (dedup_names [] mvs))) <->
  exists y, first_entry n mvs = Some y /\ p (n, y) = true /\ f (n, y) = z.
Proof.
  intros C f p mvs n z. rewrite in_map_iff. split.
  - intros [[k y] [E H]]. apply filter_In in H. destruct H as [H T]. apply dedup_spec in H. cbn [fst] in E.
    injection E as -> <-. exists y. tauto.
  - intros [y [H [T <-]]]. exists (n, y). split; [reflexivity|]. apply filter_In. split; [|exact T].
    apply dedup_spec. auto.
Qed.

Lemma disc_steps_eq : forall f,
  disc_steps f = stmts_steps discover (read_names (mfn_modvars f)) 0 [salt_name] (mfn_stmts f).
Proof. destruct f. exact (list_of_steps_of _). Qed.

Lemma disc_vars_In : forall f n v,
  In (n, v) (disc_vars f) <-> exists c, first_entry n (mfn_modvars f) = Some (true, v, c).
Proof.
  intros f n v. replace (disc_vars f) with (vars_of (mfn_modvars f)) by (destruct f; reflexivity).
  unfold vars_of. rewrite isort_perm, reads_In. split.
  - intros [[[b w] c] [H [T E]]]. cbn in T, E. subst. exists c. exact H.
  - intros [c H]. exists (true, v, c). auto.
Qed.
Lemma disc_exts_In : forall f n c,
  In (n, c) (disc_exts f) <->
  (exists v, first_entry n (mfn_modvars f) = Some (false, v, c)) \/ In (n, c) (mfn_helpers f).
Proof.
  intros f n c. replace (disc_exts f) with (exts_of (mfn_modvars f) (mfn_helpers f)) by (destruct f; reflexivity).
  unfold exts_of. rewrite isort_perm, in_app_iff, reads_In. apply or_iff_compat_r. split.
  - intros [[[b w] c'] [H [T E]]]. cbn in T, E. destruct b; [discriminate T|]. subst. exists w. exact H.
  - intros [v H]. exists (false, v, c). auto.
Qed.
Lemma disc_sorted : forall f, Sorted by_name (disc_vars f) /\ Sorted by_name (disc_exts f).
Proof.
  destruct f. split; apply isort_sorted.
  - intros a b H. exact H.
  - intros a b. apply bytes_leb_total.
  - exact pair_leb_key.
  - exact pair_leb_false_key.
Qed.
Lemma disc_vars_length : forall f, List.length (disc_vars f) <= List.length (mfn_modvars f).
Proof.
  destruct f. cbn [mfn_modvars]. change (disc_vars _) with (vars_of modvars). unfold vars_of.
  rewrite (Permutation_length (isort_perm _ _)), map_length. generalize (@nil bytes).
  induction modvars as [|[k y] r IH]; simpl; intros s; auto.
  destruct (name_in k s); simpl; [|destruct (mv_tracked (k, y)); simpl]; auto using le_n_S, le_S.
Qed.

Lemma index_of_nth : forall n l, In n l -> nth_error l (index_of n l) = Some n.
Proof.
  induction l as [|x r IH]; simpl; intros H; [contradiction|].
  destruct (bytes_eqb_spec n x) as [-> |]; [reflexivity|]. destruct H as [H|H]; [congruence | auto].
Qed.
Theorem discover_var_index : forall modvars n,
  In n (map fst modvars) ->
  exists i, expr_of (read_names modvars) (MVar n) = EVar i /\ nth_error (read_names modvars) i = Some n /\
            Sorted (fun a b => bytes_leb a b = true) (read_names modvars).
Proof.
  intros mvs n H. exists (index_of n (read_names mvs)). split; [reflexivity|]. split.
  - apply index_of_nth. unfold read_names. rewrite isort_perm. exact H.
  - apply isort_sorted; [auto | exact bytes_leb_total].
Qed.

(* the names statement number i marks before its callee name is visited: its target x<i> and the head of the
   enclosing call (vlogmod.apply( / dds.keep( ) *)
Definition own_marks (i : nat) (s : mstmt) : list bytes :=
  match s with
  | MApply _ _ _ => [logmod_name; xname i]
  | MKeep _ _ _ _ _ _ _ _ => [dds_name; xname i]
  | _ => [xname i]
  end.
(* all the names marked once statement number i has been visited *)
Definition stmt_marks (i : nat) (s : mstmt) : list bytes :=
  match s with
  | MCall _ sp _ _ => sp_head sp :: own_marks i s
  | MApply _ sp _ => sp_head sp :: own_marks i s
  | MKeep _ _ _ _ sp _ _ _ => sp_head sp :: own_marks i s
  | MLoad _ => dds_name :: own_marks i s
  end.
(* ... by the statements l, numbered from i (latest first) *)
Fixpoint marks_of (i : nat) (l : list mstmt) : list bytes :=
  match l with
  | [] => []
  | s :: r => marks_of (S i) r ++ stmt_marks i s
  end.
(* the names marked when the statements [pre] of a body have been visited *)
Definition marked_before (pre : list mstmt) : list bytes := marks_of 0 pre ++ [salt_name].
(* the names marked when the visitor reaches the callee name of statement s, which follows [pre] *)
Definition mentioned_before (pre : list mstmt) (s : mstmt) : list bytes :=
  own_marks (List.length pre) s ++ marked_before pre.
Definition first_mentionb (pre : list mstmt) (s : mstmt) : bool :=
  match mstmt_spelling s with
  | Some sp => negb (name_in (sp_head sp) (mentioned_before pre s))
  | None => false
  end.
Lemma first_mentionb_iff : forall pre s sp, mstmt_spelling s = Some sp ->
  (first_mentionb pre s = true <-> ~ In (sp_head sp) (mentioned_before pre s)).
Proof.
  intros pre s sp E. unfold first_mentionb. rewrite E, negb_true_iff, <- existsb_bytes_eqb. symmetry. apply not_true_iff_false.
Qed.

Lemma marks_of_spec : forall l i x,
  In x (marks_of i l) <-> exists j s, nth_error l j = Some s /\ In x (stmt_marks (i + j) s).
Proof.
  induction l as [|s r IH]; simpl; intros i x.
  - split; [contradiction|]. intros [j [s [H _]]]. destruct j; discriminate.
  - rewrite in_app_iff, IH. split.
    + intros [[j [s' [H1 H2]]]|H].
      * exists (S j), s'. split; auto. rewrite Nat.add_succ_r. exact H2.
      * exists 0, s. split; auto. rewrite Nat.add_0_r. exact H.
    + intros [[|j] [s' [H1 H2]]]; simpl in H1.
      * injection H1 as H1. subst s'. right. rewrite Nat.add_0_r in H2. exact H2.
      * left. exists j, s'. split; auto. rewrite Nat.add_succ_r in H2. exact H2.
Qed.

Lemma marks_of_snoc : forall l i s, marks_of i (l ++ [s]) = stmt_marks (i + List.length l) s ++ marks_of i l.
Proof.
  induction l as [|p r IH]; intros i s.
  - cbn [marks_of app List.length]. rewrite Nat.add_0_r, app_nil_r. reflexivity.
  - cbn [marks_of app List.length]. rewrite IH, Nat.add_succ_r, app_assoc. reflexivity.
Qed.

(* the steps of one statement, given whether its callee name is a first mention *)
Definition spec_steps (rec : mfn -> fn) (names : list bytes) (fresh : bool) (s : mstmt) : list step :=
  match s with
  | MLoad p => [SLoad p]
  | MCall line sp g args => [SCall line line (rec g) (map (expr_of names) args)]
  | MApply line sp g => if fresh then [SRef line (rec g) true] else [SApply (rec g)]
  | MKeep line eline rl path sp g pos kw =>
    SKeep line eline path (rec g) (pos_of names pos) (kw_of names kw)
    :: (if fresh then [SRef rl (rec g) false] else [])
  end.
(* the steps of the statements l that follow [pre] *)
Fixpoint spec_from (rec : mfn -> fn) (names : list bytes) (pre l : list mstmt) : list step :=
  match l with
  | [] => []
  | s :: r => spec_steps rec names (first_mentionb pre s) s ++ spec_from rec names (pre ++ [s]) r
  end.

(* the threaded set and the marked names are compared as sets *)
Definition same_names (a b : list bytes) : Prop := forall x, name_in x a = name_in x b.
Lemma same_names_cons : forall x a b, same_names a b -> same_names (x :: a) (x :: b).
Proof. intros x a b H y. rewrite !name_in_cons, (H y). reflexivity. Qed.

Lemma same_names_absorb : forall h a b, name_in h b = true -> same_names a b -> same_names a (h :: b).
Proof.
  intros h a b E H y. rewrite name_in_cons, (H y). destruct (bytes_eqb_spec y h) as [-> |]; [|reflexivity].
  rewrite E. reflexivity.
Qed.

(* the visitor tests the head of the callee against the threaded set and adds it only when it is absent; the marks
   have it in either case *)
Lemma stmt_steps_spec : forall rec names pre seen s,
  same_names seen (marked_before pre) ->
  fst (stmt_steps rec names (List.length pre) seen s) = spec_steps rec names (first_mentionb pre s) s /\
  same_names (snd (stmt_steps rec names (List.length pre) seen s)) (stmt_marks (List.length pre) s ++ marked_before pre).
Proof.
  intros rec names pre seen s H.
  assert (H2 : forall a, same_names (a :: xname (List.length pre) :: seen) (a :: xname (List.length pre) :: marked_before pre))
    by (intros a; apply same_names_cons, same_names_cons, H).
  destruct s as [line sp g args | line sp g | line eline rl path sp g pos kw | p];
    unfold stmt_steps, first_mentionb, mentioned_before; cbn [mstmt_spelling spec_steps stmt_marks own_marks fst snd app].
  - (* MCall *) split; [reflexivity | apply H2].
  - (* MApply: the head is tested after vlogmod is marked *)
    rewrite (H2 logmod_name (sp_head sp)). destruct (name_in (sp_head sp) _) eqn:E; (split; [reflexivity|]).
    + (* seen *) apply same_names_absorb; [exact E | apply H2].
    + (* new *) apply same_names_cons, H2.
  - (* MKeep: the head is tested after dds is marked *)
    rewrite (H2 dds_name (sp_head sp)). destruct (name_in (sp_head sp) _) eqn:E; (split; [reflexivity|]).
    + (* seen *) apply same_names_absorb; [exact E | apply H2].
    + (* new *) apply same_names_cons, H2.
  - (* MLoad *) split; [reflexivity | apply H2].
Qed.

Lemma stmts_steps_spec : forall rec names l pre seen,
  same_names seen (marked_before pre) ->
  stmts_steps rec names (List.length pre) seen l = spec_from rec names pre l.
Proof.
  intros rec names. induction l as [|s r IH]; intros pre seen H; [reflexivity|].
  cbn [stmts_steps spec_from].
  destruct (stmt_steps_spec rec names pre seen s H) as [H1 H2].
  rewrite H1. f_equal.
  rewrite <- (last_length pre s).
  apply IH. unfold marked_before in *. rewrite marks_of_snoc, Nat.add_0_l, <- app_assoc. exact H2.
Qed.

Theorem discover_steps_spec : forall f,
  disc_steps f = spec_from discover (read_names (mfn_modvars f)) [] (mfn_stmts f).
Proof. intros f. rewrite disc_steps_eq. apply (stmts_steps_spec discover _ _ []). intros x. reflexivity. Qed.

Lemma spec_from_split : forall rec names pre s post pre0,
  spec_from rec names pre0 (pre ++ s :: post) =
  spec_from rec names pre0 pre ++ spec_steps rec names (first_mentionb (pre0 ++ pre) s) s
  ++ spec_from rec names (pre0 ++ pre ++ [s]) post.
Proof.
  intros rec names. induction pre as [|p pre IH]; intros s post pre0.
  - cbn [app spec_from]. rewrite app_nil_r. reflexivity.
  - cbn [app spec_from]. rewrite IH, <- !app_assoc. reflexivity.
Qed.

Lemma disc_steps_split : forall f pre s post,
  mfn_stmts f = pre ++ s :: post ->
  disc_steps f =
  spec_from discover (read_names (mfn_modvars f)) [] pre
  ++ spec_steps discover (read_names (mfn_modvars f)) (first_mentionb pre s) s
  ++ spec_from discover (read_names (mfn_modvars f)) (pre ++ [s]) post.
Proof. intros f pre s post H. rewrite discover_steps_spec, H, spec_from_split. reflexivity. Qed.

Lemma spec_from_In : forall rec names l pre0 st,
  In st (spec_from rec names pre0 l) <->
  exists pre s post, l = pre ++ s :: post /\ In st (spec_steps rec names (first_mentionb (pre0 ++ pre) s) s).
Proof.
  intros rec names l pre0 st. split.
  - revert pre0. induction l as [|s r IH]; intros pre0 H; [destruct H|].
    cbn [spec_from] in H. apply in_app_iff in H. destruct H as [H | H].
    + exists [], s, r. rewrite app_nil_r. auto.
    + destruct (IH _ H) as [pre [s' [post [-> H']]]]. exists (s :: pre), s', post.
      rewrite <- app_assoc in H'. auto.
  - intros [pre [s [post [-> H]]]]. rewrite spec_from_split. auto using in_or_app.
Qed.
Lemma disc_steps_In : forall f st,
  In st (disc_steps f) <->
  exists pre s post, mfn_stmts f = pre ++ s :: post /\
                     In st (spec_steps discover (read_names (mfn_modvars f)) (first_mentionb pre s) s).
Proof. intros f st. rewrite discover_steps_spec. apply spec_from_In. Qed.

Lemma disc_steps_of_stmt : forall f s, In s (mfn_stmts f) ->
  exists pre, incl (spec_steps discover (read_names (mfn_modvars f)) (first_mentionb pre s) s) (disc_steps f).
Proof.
  intros f s H. apply in_split in H. destruct H as [pre [post H]]. exists pre. intros st Hst. apply disc_steps_In. eauto.
Qed.

Inductive ckind := KCall | KKeep | KByName.
(* the analysed-and-executed calls among the steps *)
Definition step_call (s : step) : list (ckind * fn) :=
  match s with
  | SCall _ _ g _ => [(KCall, g)]
  | SKeep _ _ _ g _ _ => [(KKeep, g)]
  | SRef _ g true => [(KByName, g)]
  | _ => []
  end.
Definition step_calls (l : list step) : list (ckind * fn) := flat_map step_call l.
(* the calls of the syntax: g(...), dds.keep(p, g, ...), and vlogmod.apply(g) when g is a first mention *)
Definition stmt_call (pre : list mstmt) (s : mstmt) : list (ckind * mfn) :=
  match s with
  | MCall _ _ g _ => [(KCall, g)]
  | MKeep _ _ _ _ _ g _ _ => [(KKeep, g)]
  | MApply _ _ g => if first_mentionb pre s then [(KByName, g)] else []
  | MLoad _ => []
  end.
Fixpoint stmt_calls (pre l : list mstmt) : list (ckind * mfn) :=
  match l with
  | [] => []
  | s :: r => stmt_call pre s ++ stmt_calls (pre ++ [s]) r
  end.

Lemma spec_calls : forall rec names l pre,
  step_calls (spec_from rec names pre l) = map (fun kg => (fst kg, rec (snd kg))) (stmt_calls pre l).
Proof.
  intros rec names. induction l as [|s r IH]; intros pre; [reflexivity|].
  cbn [spec_from stmt_calls]. unfold step_calls in *. rewrite flat_map_app, map_app, IH. f_equal.
  destruct s; cbn [spec_steps stmt_call]; try reflexivity; destruct (first_mentionb pre _); reflexivity.
Qed.

Theorem aarg_of_spec : forall e,
  aarg_of e = match e with
              | MLit v => if is_ast_constant v then ALit v else ARun
              | _ => ARun
              end.
Proof. destruct e; reflexivity. Qed.
Theorem negative_literal_is_runtime : forall z, (z < 0)%Z -> aarg_of (MLit (VInt z)) = ARun.
Proof. intros z H. simpl. destruct (Z.leb_spec 0 z); [lia | reflexivity]. Qed.
(* a computed argument evaluates to its value; that it is a run-time argument (ARun) whatever that value is, is the
   last case of [aarg_of_spec] *)
Theorem computed_expression_value : forall names v, expr_of names (MComputed v) = ELit v.
Proof. reflexivity. Qed.

(* SApply counts: a later by-name mention is not analysed again, only recorded as executed *)
Definition step_callee (s : step) : option fn :=
  match s with
  | SCall _ _ g _ | SRef _ g _ | SApply g | SKeep _ _ _ g _ _ => Some g
  | SLoad _ => None
  end.
Definition fn_steps (f : fn) : list step := body_steps (first_body f).

Inductive mfn_reach : mfn -> mfn -> Prop :=
| MR_refl : forall f, mfn_reach f f
| MR_step : forall f s g h, In s (mfn_stmts f) -> mstmt_callee s = Some g -> mfn_reach g h -> mfn_reach f h.
Inductive fn_reach : fn -> fn -> Prop :=
| FR_refl : forall f, fn_reach f f
| FR_step : forall f s g h, In s (fn_steps f) -> step_callee s = Some g -> fn_reach g h -> fn_reach f h.

Lemma spec_steps_callee : forall rec names fresh s st,
  In st (spec_steps rec names fresh s) -> step_callee st = option_map rec (mstmt_callee s).
Proof. intros rec names fresh s st H. destruct s, fresh; cbn [spec_steps In] in H; intuition (subst; reflexivity). Qed.
Lemma spec_steps_inhabited : forall rec names fresh s, exists st, In st (spec_steps rec names fresh s).
Proof. intros rec names fresh s. destruct s, fresh; eexists; left; reflexivity. Qed.

Lemma stmt_has_step : forall f s g,
  In s (mfn_stmts f) -> mstmt_callee s = Some g ->
  exists st, In st (disc_steps f) /\ step_callee st = Some (discover g).
Proof.
  intros f s g H Hc. destruct (disc_steps_of_stmt f s H) as [pre Hi].
  destruct (spec_steps_inhabited discover (read_names (mfn_modvars f)) (first_mentionb pre s) s) as [st Hin].
  exists st. split; [apply Hi, Hin|]. rewrite (spec_steps_callee _ _ _ _ _ Hin), Hc. reflexivity.
Qed.

Lemma step_has_stmt : forall f st k,
  In st (disc_steps f) -> step_callee st = Some k ->
  exists s g, In s (mfn_stmts f) /\ mstmt_callee s = Some g /\ k = discover g.
Proof.
  intros f st k H E. apply disc_steps_In in H. destruct H as [pre [s [post [Hs Hin]]]].
  rewrite (spec_steps_callee _ _ _ _ _ Hin) in E.
  destruct (mstmt_callee s) as [g|] eqn:Hg; [injection E as <- | discriminate E].
  exists s, g. rewrite Hs. auto using in_elt.
Qed.

Theorem discover_tree_complete : forall f h, mfn_reach f h -> fn_reach (discover f) (discover h).
Proof.
  intros f h R. induction R as [f | f s g h Hs Hc R IH]; [constructor|].
  destruct (stmt_has_step f s g Hs Hc) as [st [H1 H2]].
  eapply FR_step; eauto.
Qed.

Theorem discover_tree_sound : forall f k, fn_reach (discover f) k -> exists h, mfn_reach f h /\ k = discover h.
Proof.
  intros f k R. remember (discover f) as a eqn:Ea. revert f Ea.
  induction R as [a | a st g k Hs Hc R IH]; intros f Ea; subst a.
  - exists f. split; [constructor | reflexivity].
  - destruct (step_has_stmt f st g Hs Hc) as [s [g' [H1 [H2 H3]]]].
    destruct (IH g' H3) as [h [Hr Hk]]. exists h. split; [|exact Hk]. eapply MR_step; eauto.
Qed.

Lemma mfn_callee_ind : forall P : mfn -> Prop,
  (forall f, (forall s g, In s (mfn_stmts f) -> mstmt_callee s = Some g -> P g) -> P f) -> forall f, P f.
Proof.
  intros P H. apply (mfn_ind' P (fun s => forall g, mstmt_callee s = Some g -> P g)); cbn [mstmt_callee];
    try (intros; congruence).
  intros c t r l p a k v h ss HF. apply H. cbn [mfn_stmts]. intros s g Hs. rewrite Forall_forall in HF. exact (HF s Hs g).
Qed.

Fixpoint plain_fn (f : fn) : bool :=
  match f with
  | Fn _ _ _ _ _ _ c b => negb c && match b with BCons bd BNil => plain_body bd | _ => false end
  end
with plain_body (b : body) : bool :=
  match b with Body _ _ s => plain_steps s end
with plain_steps (s : steps) : bool :=
  match s with SNil => true | SCons x r => plain_step x && plain_steps r end
with plain_step (s : step) : bool :=
  match s with
  | SCall _ _ g _ | SRef _ g _ | SApply g | SKeep _ _ _ g _ _ => plain_fn g
  | SLoad _ => true
  end.

Lemma plain_steps_all : forall l,
  (forall st g, In st l -> step_callee st = Some g -> plain_fn g = true) -> plain_steps (steps_of l) = true.
Proof.
  induction l as [|x l IH]; intros H; [reflexivity|]. cbn [steps_of plain_steps]. apply andb_true_iff. split.
  - destruct x; cbn [plain_step]; try reflexivity; apply (H _ _ (or_introl eq_refl)); reflexivity.
  - apply IH. intros st g Hst. apply H. right. exact Hst.
Qed.

Fixpoint mfn_no_class (f : mfn) : bool :=
  match f with
  | MFn _ _ _ _ _ _ k _ _ ss =>
    negb k && forallb (fun s => match s with
                                | MCall _ _ g _ | MApply _ _ g | MKeep _ _ _ _ _ g _ _ => mfn_no_class g
                                | MLoad _ => true
                                end) ss
  end.

Theorem discover_plain : forall f, mfn_no_class f = true -> plain_fn (discover f) = true.
Proof.
  induction f as [f IH] using mfn_callee_ind. intros NC.
  assert (Hs : plain_steps (steps_of (disc_steps f)) = true).
  { apply plain_steps_all. intros st k Hst Hk. destruct (step_has_stmt f st k Hst Hk) as [s [g [Hs [Hg ->]]]].
    apply (IH s g Hs Hg). destruct f. cbn [mfn_no_class mfn_stmts] in *. apply andb_true_iff in NC. destruct NC as [_ NC].
    rewrite forallb_forall in NC. specialize (NC s Hs). destruct s; cbn in Hg; congruence. }
  rewrite disc_steps_eq in Hs. destruct f. cbn [mfn_no_class] in NC. apply andb_true_iff in NC. destruct NC as [Hk _].
  destruct is_class; [discriminate Hk|]. exact Hs.
Qed.

(* every node of the analysis tree is either a plain function with a single body, or a class with exactly two bodies
   of which the second (`get`) is empty *)
Fixpoint shaped_fn (f : fn) : bool :=
  match f with
  | Fn _ _ _ _ _ _ c b =>
    match b with
    | BCons bd BNil => negb c && shaped_body bd
    | BCons bd (BCons (Body [] [] SNil) BNil) => c && shaped_body bd
    | _ => false
    end
  end
with shaped_body (b : body) : bool :=
  match b with Body _ _ s => shaped_steps s end
with shaped_steps (s : steps) : bool :=
  match s with SNil => true | SCons x r => shaped_step x && shaped_steps r end
with shaped_step (s : step) : bool :=
  match s with
  | SCall _ _ g _ | SRef _ g _ | SApply g | SKeep _ _ _ g _ _ => shaped_fn g
  | SLoad _ => true
  end.

Lemma shaped_steps_all : forall l,
  (forall st g, In st l -> step_callee st = Some g -> shaped_fn g = true) -> shaped_steps (steps_of l) = true.
Proof.
  induction l as [|x l IH]; intros H; [reflexivity|]. cbn [steps_of shaped_steps]. apply andb_true_iff. split.
  - destruct x; cbn [shaped_step]; try reflexivity; apply (H _ _ (or_introl eq_refl)); reflexivity.
  - apply IH. intros st g Hst. apply H. right. exact Hst.
Qed.

Theorem discover_shaped : forall f, shaped_fn (discover f) = true.
Proof.
  induction f as [f IH] using mfn_callee_ind.
  assert (Hs : shaped_steps (steps_of (disc_steps f)) = true).
  { apply shaped_steps_all. intros st k Hst Hk. destruct (step_has_stmt f st k Hst Hk) as [s [g [Hs [Hg ->]]]].
    exact (IH s g Hs Hg). }
  rewrite disc_steps_eq in Hs. destruct f. destruct is_class; exact Hs.
Qed.

Lemma plain_shaped :
  (forall f, plain_fn f = true -> shaped_fn f = true) /\
  (forall bs, match bs with BCons bd BNil => plain_body bd = true -> shaped_body bd = true | _ => True end) /\
  (forall b, plain_body b = true -> shaped_body b = true) /\
  (forall s, plain_steps s = true -> shaped_steps s = true) /\
  (forall s, plain_step s = true -> shaped_step s = true).
Proof.
  apply prog_mutind; cbn [plain_fn plain_body plain_steps plain_step shaped_body shaped_steps shaped_step]; auto.
  - intros n t r l p a c b IH H. apply andb_true_iff in H. destruct H as [Hc H].
    destruct c; [discriminate|]. destruct b as [|bd [|? ?]]; try discriminate. apply IH. exact H.
  - intros bd IHb r _. destruct r; auto.
  - intros x IHx r IHr H. apply andb_true_iff in H. destruct H as [H1 H2]. rewrite IHx, IHr; auto.
Qed.
