(* C03: dds_hash_commut (the hash of dict / set like collections of pairs) does not depend on the order in which the
   pairs are enumerated.
   First, positional numerals.  The models render a number in two places with the same fuel-driven loop: hexadecimal in
   DdsHash.hex_of_N_fuel ("{:x}" of the XOR-fold) and decimal in Bytes.dec_pos_fuel (the index of a fun_dep_<i> key).
   [render_fuel b dig] is that loop for any base and digit function; both are instances of it by computation.  With
   enough fuel, reading the digits back gives the number: rendering loses nothing. *)
From Coq Require Import List Ascii String ZArith NArith Bool Lia Permutation.
From DDS Require Import Base.Bytes L0_Hash.DdsHash.
Import ListNotations.
Local Open Scope N_scope.

Section Digits.
  Variable b : N.
  Variable dig : N -> ascii.
  Variable dv : ascii -> N.
  Hypothesis b_ge2 : 2 <= b.
  Hypothesis dv_dig : forall d, d < b -> dv (dig d) = d.

  Fixpoint render_fuel (fuel : nat) (n : N) (acc : bytes) : bytes :=
    match fuel with
    | O => acc
    | S f => let d := dig (n mod b) in if n <? b then d :: acc else render_fuel f (n / b) (d :: acc)
    end.

  Definition value (l : bytes) : N := fold_left (fun acc c => b * acc + dv c) l 0.

  Lemma render_fuel_acc : forall fuel n acc, render_fuel fuel n acc = render_fuel fuel n [] ++ acc.
  Proof.
    induction fuel as [|f IH]; intros n acc; [reflexivity|].
    cbn [render_fuel]. destruct (n <? b); [reflexivity|].
    rewrite (IH (n / b) (_ :: acc)), (IH (n / b) [_]), <- app_assoc. reflexivity.
  Qed.

  Lemma value_render_fuel : forall fuel n, n < b ^ N.of_nat fuel -> value (render_fuel fuel n []) = n.
  Proof.
    induction fuel as [|f IH]; intros n Hn.
    - change (n < 1) in Hn. replace n with 0 by lia. reflexivity.
    - cbn [render_fuel]. pose proof (N.mod_lt n b ltac:(lia)) as Hd. destruct (N.ltb_spec n b) as [Hlt|Hge].
      + unfold value. cbn [fold_left]. rewrite dv_dig, N.mod_small by assumption. lia.
      + assert (Hq : n / b < b ^ N.of_nat f).
        { apply N.div_lt_upper_bound; [lia|]. rewrite Nnat.Nat2N.inj_succ, N.pow_succ_r' in Hn. exact Hn. }
        rewrite render_fuel_acc. unfold value. rewrite fold_left_app. cbn [fold_left].
        fold (value (render_fuel f (n / b) [])). rewrite dv_dig, (IH _ Hq) by exact Hd.
        symmetry. apply N.div_mod. lia.
  Qed.

  (* the fuel both models give: one more than the binary logarithm *)
  Theorem value_render : forall n, value (render_fuel (S (N.to_nat (N.log2 n))) n []) = n.
  Proof.
    intros n. apply value_render_fuel. rewrite Nnat.Nat2N.inj_succ, Nnat.N2Nat.id.
    apply N.lt_le_trans with (2 ^ N.succ (N.log2 n)); [|apply N.pow_le_mono_l; exact b_ge2].
    destruct n as [|p]; [reflexivity|]. apply N.log2_spec. reflexivity.
  Qed.
End Digits.

(* "{:x}" can be read back: hex_of_N_fuel is Digits.render_fuel in base 16, N_of_hex is Digits.value *)

Lemma hexval_hexdig : forall d : N, d < 16 -> hexval (hexdig d) = d.
Proof.
  intros d Hd. unfold hexval, hexdig. cbv zeta.
  destruct (N.ltb_spec d 10); rewrite N_ascii_embedding by lia.
  - destruct (N.leb_spec (48 + d) 57); lia.
  - destruct (N.leb_spec (87 + d) 57); [lia|]. destruct (N.leb_spec (87 + d) 70); lia.
Qed.

Definition hex_step (acc : N) (c : ascii) : N := 16 * acc + hexval c.

Lemma N_of_hex_unfold : forall b, N_of_hex b = fold_left hex_step b 0.
Proof. reflexivity. Qed.

Lemma N_of_hex_hex_of_N : forall n, N_of_hex (hex_of_N n) = n.
Proof. exact (value_render 16 hexdig hexval ltac:(lia) hexval_hexdig). Qed.

(* dds_hash_commut of two or more pairs is the rendering of the XOR of all digests, folded from 0 *)
Definition xor_all (H : bytes -> bytes) (l : list (bytes * bytes)) (x : N) : N :=
  fold_left (fun acc c => N.lxor acc (N_of_hex (commut_digest H c))) l x.

Lemma commut_fold_hex : forall H r x,
  fold_left (fun res c => hex_of_N (N.lxor (N_of_hex res) (N_of_hex (commut_digest H c)))) r (hex_of_N x) =
  hex_of_N (xor_all H r x).
Proof.
  intros H r. induction r as [|c r IH]; intros x; [reflexivity|].
  cbn [fold_left xor_all]. rewrite N_of_hex_hex_of_N. apply IH.
Qed.

Lemma commut_as_xor : forall H a b r, dds_hash_commut H (a :: b :: r) = Some (hex_of_N (xor_all H (a :: b :: r) 0)).
Proof. intros H a b r. cbn [dds_hash_commut fold_left xor_all]. rewrite commut_fold_hex, N.lxor_0_l. reflexivity. Qed.

Lemma xor_all_perm : forall H l1 l2, Permutation l1 l2 -> forall x, xor_all H l1 x = xor_all H l2 x.
Proof.
  intros H l1 l2 HP. induction HP as [|c l l' HP IH|c d l|l l' l'' HP1 IH1 HP2 IH2]; intro x; cbn [xor_all fold_left].
  - reflexivity.
  - apply IH.
  - rewrite !N.lxor_assoc, (N.lxor_comm (N_of_hex (commut_digest H d))). reflexivity.
  - rewrite IH1. apply IH2.
Qed.

Theorem commut_perm : forall H l1 l2, Permutation l1 l2 -> dds_hash_commut H l1 = dds_hash_commut H l2.
Proof.
  intros H l1 l2 HP. pose proof (Permutation_length HP) as Hlen.
  destruct l1 as [|a [|b r]].
  - apply Permutation_nil in HP. subst l2. reflexivity.
  - apply Permutation_length_1_inv in HP. subst l2. reflexivity.
  - destruct l2 as [|a' [|b' r']]; try discriminate Hlen.
    rewrite !commut_as_xor, (xor_all_perm H _ _ HP). reflexivity.
Qed.

(* non-vacuity: a rotation of three pairs *)
Example commut_swap : forall H a b c, dds_hash_commut H [a; b; c] = dds_hash_commut H [c; a; b].
Proof.
  intros H a b c. apply commut_perm.
  change [c; a; b] with ([c] ++ [a; b]). change [a; b; c] with ([a; b] ++ [c]). apply Permutation_app_comm.
Qed.

Print Assumptions N_of_hex_hex_of_N.
Print Assumptions commut_perm.
