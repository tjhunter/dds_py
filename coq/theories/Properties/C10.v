(* C10 - a failing user function is never cached and leaves dds and the store clean.  Proofs: L4_Eval/EvalProofs.v *)
From Coq Require Import List ZArith NArith.
From DDS Require Import Base.Bytes L0_Hash.PyVal L1_Args.ArgCtx L3_Sig.Program L3_Sig.Sig L4_Eval.Stages L4_Eval.DdsEval
     L4_Eval.EvalSpec L4_Eval.EvalProofs.
Import ListNotations.

(* The exception of the user function propagates unchanged (the outcome is the plain outcome, which for a raising
   function is [Raise tag kind] - the model has one exception value per raising function, the tie checks object
   identity), and whatever was stored before the failure is sound: nothing is stored under the signature of the failing
   node or of a node waiting for it, because a key denotes a value only if its node returns. *)
Theorem C10_failure_propagates_and_store_stays_sound : forall Den f pvals s sp,
  no_loads_fn f = true -> StoreOK Den s -> sound_fn Den sp f pvals ->
  fst (exec_fn (Dds sp) f pvals s) = pv_fn f pvals /\ StoreOK Den (snd (exec_fn (Dds sp) f pvals s)).
Proof. intros Den f pvals s sp A. exact (exec_dds Den f A sp pvals s). Qed.
Print Assumptions C10_failure_propagates_and_store_stays_sound.

(* None of the evaluation's paths is committed when the evaluation does not return. *)
Theorem C10_fail_no_commit : forall H mx c f sty pos kw s,
  is_ret (fst (dds_call H mx c f sty pos kw s)) = false ->
  s_paths (snd (dds_call H mx c f sty pos kw s)) = s_paths s.
Proof. exact fail_no_commit. Qed.
Print Assumptions C10_fail_no_commit.

(* dds stays usable: after any call (failed or not) the store is sound, so the next evaluation is correct (C01) and
   reuses the sub-results that did complete (blobs only ever accumulate). *)
Theorem C10_store_ok_after_any_call : forall Den H mx c f sty pos kw s,
  StoreOK Den s -> call_hyp Den H mx s (c, f, sty, pos, kw) -> StoreOK Den (snd (dds_call H mx c f sty pos kw s)).
Proof. exact dds_call_store_ok. Qed.
Print Assumptions C10_store_ok_after_any_call.

Theorem C10_completed_subresults_kept : forall f pvals s sp k v,
  blookup k (s_blobs s) = Some v -> blookup k (s_blobs (snd (exec_fn (Dds sp) f pvals s))) = Some v.
Proof. exact dds_exec_monotone. Qed.
Print Assumptions C10_completed_subresults_kept.
