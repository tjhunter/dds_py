(* C01 (c) - signatures determine plain values: the hypotheses [sound_fn] / [root_sound] of C01.v are theorems.
   Proofs: L4_Eval/SoundnessDefs.v (vocabulary), SoundnessSite.v (call sites), SoundnessA.v (Theorem A), Soundness.v
   (Theorems B, C, refutations, example; finite checks of the example in ClosedUniverse.v).  Nothing below is an Axiom: every hypothesis is a premise, bundled in the records [univ_ok] (Theorems A, B;
   spelled out by C01_universe_hypotheses) and [hist_univ_ok] (Corollary C).

   THE HYPOTHESES, in words.  A universe is: a set U of functions (every program version, with callees), a set UVal of
   values, the top-level calls (RootOK / RootCall), a value hash hv and a line hash hl (Theorem A: any functions;
   Theorems B, C: the real dds_hash over a digest function H).
   [univ_ok]:
   - u_closed    U contains the callees of the executed body of each of its functions.
   - u_wf        local well-formedness of each function of U (SoundnessDefs.wf_fn):
                   * every default value d is readable: what fun_args.py hashes for it (the marker string for None) is in
                     UVal and reads back as d (excludes the marker string itself as a default: known finding F04-marker);
                   * a class has no data_function path;
                   * the tracked variables read by the executed body have values in UVal;
                   * dds.keep(p, g, e..): an argument seen by the analysis as the constant v IS the expression v, and v is
                     readable (excludes the marker string as a literal: F04-marker);
                   * (nothing is asked of a plain call g(e..).  FINDING F30, discovered by this proof and reproduced on the
                     real library: the analysis of a plain call ignored the arguments (get_arg_ctx_ast(g, [], {})), bound
                     defaulted parameters to their defaults and, when every parameter had a default, dropped the call-site
                     context: g(5) and g(7) for def g(x=3) gave g - and every keep below g - the same signature, and the
                     stale result was served.  REPAIRED by a fix in /repo (F30): a parameter bound explicitly by a plain
                     call is now unknown, so the call site is part of the signature; the model follows (Sig.unbind):
                     [wf_step] is True for a plain call, its explicit arguments are covered by the call-site context like
                     the run-time arguments of a keep, and C01_plain_call_explicit_argument_tracked is the regression
                     theorem on the program that exhibited the finding.)
                   * apply(g): g is the function (same tree) of the first earlier by-name mention with that name
                     (modelling constraint, C01_refuted_apply_unlinked).
   - u_text      equal source lines => equal skeleton (tag, raises, parameters, is_class, decorator path, and for the
                 executed body the list of steps up to line numbers, callee sub-trees and ALit/ARun flags: kinds, argument
                 expressions, keyword names, literal paths of dds.keep / dds.load, target of apply).  True of generated programs: the skeleton is parsed from
                 the text.
   - u_prefix    the same for a source PREFIX ending at a call (the call-site context hashes only the lines up to the
                 call): equal prefixes + same rank among the analysed interactions => same parameters and same skeleton
                 up to and including the call.  True when statements are on their own lines in program order
                 (generated programs); an expression whose analysis order differs from its evaluation order is finding
                 F25 (known).
   - u_hl_inj    the line hash is injective on the prefixes of the texts of U (idealisation; no hashing error needed).
   - u_hv_inj    the value hash is injective on UVal (idealisation).  It CANNOT hold for all values with the real
                 dds_hash: bool/int, str/path, list/tuple collide (C01_refuted_value_hash; F03 family): UVal must avoid
                 such pairs - this restricts real programs.
   - u_root      top-level calls are calls of functions of U whose arguments are all known and readable
                 (Soundness.root_kmatch derives this from per-value conditions).
   [render_inj_on] (Theorems B, C): rendering with H (SHA-256 + XOR-fold) is injective on the signature terms of the
                 consistent nodes of U - THE cryptographic idealisation.  False for H = identity on the example universe
                 (the XOR-fold cancels), true there for a mixing H (C01_universe_example).
   [hist_univ_ok] adds, for Corollary C:
   - h_noloads   no dds.load in the top-level functions (loads are C09).
   - h_coherent  in one evaluation no path is kept with two different signatures (known findings F12 / F26,
                 C01_refuted_same_path_twice); decidable on the analysed tree.
   Suspects checked: (i) EVar indexing - fine (variable VALUES are in the content, names do not matter); (ii) SApply -
   needs the link above; (iii) SRef false / numbering of locals - fine; (iv) defaults - finding F30, repaired; (v) classes - fine
   (the first method is executed, every method is in the signature). *)
From Coq Require Import List String ZArith NArith.
From DDS Require Import Base.Bytes L0_Hash.PyVal L0_Hash.DdsHash L1_Args.ArgCtx L3_Sig.Program L3_Sig.Sig L3_Sig.SigTree
     L3_Sig.SigTreeProofs L4_Eval.Stages L4_Eval.DdsEval L4_Eval.EvalSpec L4_Eval.EvalProofs
     L4_Eval.SoundnessDefs L4_Eval.SoundnessA L4_Eval.Soundness.
Import ListNotations.

(* The record of universe hypotheses, spelled out. *)
Theorem C01_universe_hypotheses : forall hv hl UVal U RootOK,
  univ_ok hv hl UVal U RootOK <->
  ((forall f g, U f -> In g (callees f) -> U g) /\
   (forall f, U f -> wf_fn UVal f) /\
   (forall f f', U f -> U f' -> fn_lines f = fn_lines f' -> skel f = skel f') /\
   (forall f f' pre s post pre' s' post' k k', U f -> U f' ->
      first_steps f = Some (pre ++ s :: post) -> first_steps f' = Some (pre' ++ s' :: post') ->
      site_end s = Some k -> site_end s' = Some k' ->
      firstn k (fn_lines f) = firstn k' (fn_lines f') ->
      List.length (cs_of pre) = List.length (cs_of pre') ->
      fn_params f = fn_params f' /\ skel_lsteps [] (pre ++ [s]) = skel_lsteps [] (pre' ++ [s'])) /\
   (forall f f' n n' h, U f -> U f' ->
      hl (firstn n (fn_lines f)) = HOk h -> hl (firstn n' (fn_lines f')) = HOk h ->
      firstn n (fn_lines f) = firstn n' (fn_lines f')) /\
   (forall v w h, UVal v -> UVal w -> hv v = HOk h -> hv w = HOk h -> v = w) /\
   (forall f named pv, RootOK f named pv -> U f /\ kmatch hv UVal named pv)).
Proof.
  intros hv hl UVal U RootOK. split.
  - intros [H1 H2 H3 H4 H5 H6 H7]. exact (conj H1 (conj H2 (conj H3 (conj H4 (conj H5 (conj H6 H7)))))).
  - intros (H1 & H2 & H3 & H4 & H5 & H6 & H7). constructor; assumption.
Qed.
Print Assumptions C01_universe_hypotheses.

(* THEOREM A.  Content determines the plain value: two analysed nodes of the universe whose parameter values are
   consistent with their argument contexts ([Cons]: a top-level call, or a call site of a consistent caller reached by
   the analysis and by the plain execution) and whose contents are equal have the same plain value. *)
Theorem C01_content_determines_value : forall hv hl UVal U RootOK, univ_ok hv hl UVal U RootOK ->
  forall g g' A A' pv pv' R R' c R1 R1',
  Cons hv hl RootOK g A pv -> Cons hv hl RootOK g' A' pv' ->
  cana hv hl g A R = inr (c, R1) -> cana hv hl g' A' R' = inr (c, R1') ->
  pv_fn g pv = pv_fn g' pv'.
Proof. exact content_determines_value. Qed.
Print Assumptions C01_content_determines_value.

(* Theorem A, all arguments known (literals, defaults, top-level values): consistency is [kmatch] - every entry is the
   hash of a value of UVal that reads back as the bound value. *)
Theorem C01_content_determines_value_known : forall hv hl UVal U RootOK, univ_ok hv hl UVal U RootOK ->
  forall g g' named named' site site' pv pv' R R' c R1 R1',
  U g -> U g' -> kmatch hv UVal named pv -> kmatch hv UVal named' pv' ->
  cana hv hl g (named, site) R = inr (c, R1) -> cana hv hl g' (named', site') R' = inr (c, R1') ->
  pv_fn g pv = pv_fn g' pv'.
Proof. exact content_determines_value_known. Qed.
Print Assumptions C01_content_determines_value_known.

(* The two halves of Theorem A: same content => same function of the parameter values (and same parameters);
   same argument content + consistency => same parameter values. *)
Theorem C01_body_determines_value : forall hv hl UVal U RootOK, univ_ok hv hl UVal U RootOK ->
  forall g g' A A' R R' c R1 R1', U g -> U g' ->
  cana hv hl g A R = inr (c, R1) -> cana hv hl g' A' R' = inr (c, R1') ->
  fn_params g = fn_params g' /\ forall pv, pv_fn g pv = pv_fn g' pv.
Proof. exact body_determines_value. Qed.
Print Assumptions C01_body_determines_value.

Theorem C01_args_determined : forall hv hl UVal U RootOK, univ_ok hv hl UVal U RootOK ->
  forall g A pv, Cons hv hl RootOK g A pv -> forall g' A' pv' a, Cons hv hl RootOK g' A' pv' ->
  cargs A = inr a -> cargs A' = inr a -> fn_params g = fn_params g' -> pv = pv'.
Proof. exact args_determined. Qed.
Print Assumptions C01_args_determined.

(* THEOREM B.  [Den_U H mx RootOK k v]: k is the rendered signature of a consistent node of the universe (any version,
   any arguments) whose plain value is Ret v.  Under the universe hypotheses and injectivity of rendering on the
   signature terms of the universe, the hypotheses of C01_exec_correct / C01_call_correct hold. *)
Theorem C01_ideal_sound_fn : forall H mx UVal U RootOK,
  univ_ok (hv0 H mx) (hl0 H mx) UVal U RootOK -> render_inj_on H mx RootOK ->
  forall sp g A pv R t R1,
  Cons (hv0 H mx) (hl0 H mx) RootOK g A pv ->
  sana (hv0 H mx) (hl0 H mx) g (skey A) R = inr (t, R1) ->
  (forall y, In y (sfi_children t) -> resolves sp (render_sfi H y)) ->
  sound_fn (Den_U H mx RootOK) sp g pv.
Proof. exact ideal_sound_fn. Qed.
Print Assumptions C01_ideal_sound_fn.

Theorem C01_ideal_root_sound : forall H mx UVal U RootOK,
  univ_ok (hv0 H mx) (hl0 H mx) UVal U RootOK -> render_inj_on H mx RootOK ->
  forall f sty named pv R X R1,
  RootOK f named pv -> sana (hv0 H mx) (hl0 H mx) f (named, None) R = inr (X, R1) ->
  coherent (styled f sty (render_sfi H X)) = true ->
  let x' := styled f sty (render_sfi H X) in
  sound_fn (Den_U H mx RootOK) (all_store_paths x') f pv /\
  root_sound (Den_U H mx RootOK) (all_store_paths x') x' f sty pv.
Proof. exact ideal_root_sound. Qed.
Print Assumptions C01_ideal_root_sound.

(* the same, against the byte-level analysis of DdsEval (through C01_signature_term_faithful): [call_hyp] holds for every
   top-level call of the universe at every store state *)
Theorem C01_call_hyp : forall H mx UVal U RootCall, hist_univ_ok H mx UVal U RootCall ->
  forall c f sty pos kw s, RootCall f sty pos kw ->
  call_hyp (Den_U H mx (RootOK_of H mx RootCall)) H mx s (c, f, sty, pos, kw).
Proof. exact call_hyp_U. Qed.
Print Assumptions C01_call_hyp.

(* COROLLARY C.  Every history of top-level calls of the universe from the empty store: the store stays sound and every
   call that runs returns the plain value of its function on the bound arguments.  No sound_fn / root_sound / call_hyp
   premise: only the universe hypotheses (with render_inj_on). *)
Theorem C01_end_to_end : forall H mx UVal U RootCall, hist_univ_ok H mx UVal U RootCall ->
  forall l, Forall (in_universe RootCall) l ->
  StoreOK (Den_U H mx (RootOK_of H mx RootCall)) (run_calls H mx l st_empty) /\
  forall l1 c f sty pos kw l2 x sp pv,
    l = l1 ++ (c, f, sty, pos, kw) :: l2 ->
    analysis H mx c f sty pos kw (run_calls H mx l1 st_empty) = inr (x, sp) ->
    has_stage Eval (c_stages c) = true ->
    bind_args (fn_params f) 0 (map RVal pos) (map (fun nv : bytes * pyval => (fst nv, RVal (snd nv))) kw) = Some pv ->
    fst (dds_call H mx c f sty pos kw (run_calls H mx l1 st_empty)) = pv_fn f pv.
Proof. exact C01_end_to_end_lemma. Qed.
Print Assumptions C01_end_to_end.

(* NON-VACUITY.  A concrete universe: three versions of  def g(x): return ("g", x);  V = "a";
   def f(): return dds.keep('/p', g, V)  - the text of the callee edited (v2), the value of the variable edited (v3) - a
   kept node with a run-time argument, dds.eval(f) as top-level calls, a mixing digest function written in Gallina:
   every hypothesis holds (finite checks by computation) ... *)
Theorem C01_universe_example : hist_univ_ok sx_H None sx_UVal sx_U sx_RootCall.
Proof. exact sx_universe_ok. Qed.
Print Assumptions C01_universe_example.

(* ... and the corollary applies to the history v1, v2, v3, v1: each call returns the plain value of its version (they
   differ), the last one is served from the store. *)
Theorem C01_universe_example_history :
  StoreOK (Den_U sx_H None sx_RootOK) (run_calls sx_H None sx_history st_empty) /\
  fst (dds_call sx_H None sx_cfg sx_f1 StEval [] [] st_empty) = pv_fn sx_f1 [] /\
  fst (dds_call sx_H None sx_cfg sx_f2 StEval [] [] (run_calls sx_H None [sx_call sx_f1] st_empty)) = pv_fn sx_f2 [] /\
  fst (dds_call sx_H None sx_cfg sx_f3 StEval [] [] (run_calls sx_H None [sx_call sx_f1; sx_call sx_f2] st_empty))
    = pv_fn sx_f3 [] /\
  fst (dds_call sx_H None sx_cfg sx_f1 StEval [] []
                (run_calls sx_H None [sx_call sx_f1; sx_call sx_f2; sx_call sx_f3] st_empty)) = pv_fn sx_f1 [] /\
  pv_fn sx_f1 [] <> pv_fn sx_f2 [] /\ pv_fn sx_f1 [] <> pv_fn sx_f3 [] /\
  s_log (run_calls sx_H None sx_history st_empty) = [bs "g"; bs "f"; bs "g2"; bs "f"; bs "g"; bs "f"; bs "f"].
Proof. exact sx_end_to_end. Qed.
Print Assumptions C01_universe_example_history.

(* Regression theorem of finding F30 (explicit argument of a plain call for a parameter with a default), on the program
   that exhibited it: def h(x); def g(x=3): return dds.keep("/p", h, x); def f(): return g(5) / g(7).  With the fixed
   analysis the kept node below g has different signature terms in the two versions, x is unknown in the argument context
   of g, and the second version evaluated after the first returns its own plain value. *)
Theorem C01_plain_call_explicit_argument_tracked :
  (exists t5 t7, rf_kept_sig rf_f5 = Some t5 /\ rf_kept_sig rf_f7 = Some t7 /\ t5 <> t7) /\
  site_named ex_hv (SCall 1 1 rf_g [ELit (VInt 5)]) = inr [(bs "x", None)] /\
  (let s1 := snd (dds_call rf_H None rf_cfg rf_f5 StEval [] [] st_empty) in
   fst (dds_call rf_H None rf_cfg rf_f7 StEval [] [] s1) = pv_fn rf_f7 [] /\
   pv_fn rf_f7 [] <> pv_fn rf_f5 []).
Proof. exact plain_call_explicit_argument_tracked. Qed.
Print Assumptions C01_plain_call_explicit_argument_tracked.

(* REFUTATIONS (by computation): what goes wrong without the hypotheses. *)
Theorem C01_refuted_marker_literal : forall hv,
  sprocess_arg hv (ALit VNone) = sprocess_arg hv (ALit (VStr default_marker)) /\ VNone <> VStr default_marker.
Proof. exact marker_literal_refuted. Qed.
Print Assumptions C01_refuted_marker_literal.

Theorem C01_refuted_value_hash : forall H mx s l,
  hv0 H mx (VBool true) = hv0 H mx (VInt 1) /\ hv0 H mx (VStr s) = hv0 H mx (VPath s) /\
  hv0 H mx (VList l) = hv0 H mx (VTuple l).
Proof. exact hv_collision_refuted. Qed.
Print Assumptions C01_refuted_value_hash.

Theorem C01_refuted_apply_unlinked :
  cana ex_hv ex_hl (rf_ap rf_a1) ([], None) [] = cana ex_hv ex_hl (rf_ap rf_a2) ([], None) [] /\
  pv_fn (rf_ap rf_a1) [] <> pv_fn (rf_ap rf_a2) [].
Proof. exact apply_unlinked_refuted. Qed.
Print Assumptions C01_refuted_apply_unlinked.

Theorem C01_refuted_same_path_twice :
  match analysis rf_H None rf_cfg rf_two StEval [VInt 1; VInt 2] [] st_empty with
  | inr (x, _) => coherent x = false
  | inl _ => False
  end /\
  fst (dds_call rf_H None rf_cfg rf_two StEval [VInt 1; VInt 2] [] st_empty) <> pv_fn rf_two [RVal (VInt 1); RVal (VInt 2)].
Proof. exact same_path_twice_refuted. Qed.
Print Assumptions C01_refuted_same_path_twice.
