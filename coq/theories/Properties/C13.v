(* C13 - a kept call's signature depends on the argument binding, not on its spelling.  Proofs: L1_Args/ArgProofs.v *)
From Coq Require Import List ZArith NArith.
From DDS Require Import Base.Bytes L0_Hash.PyVal L0_Hash.DdsHash L0_Hash.Norm L0_Hash.HashSpec L1_Args.ArgCtx L1_Args.ArgSpec
     L1_Args.ArgProofs.
Import ListNotations.

(* All spellings (positional, keyword, reordered keywords, explicit or omitted defaults) of one binding share one
   argument signature, whether the values are passed directly or seen as literals in the source. *)
Theorem C13_spelling_invariant : forall H mx ps pos1 kw1 pos2 kw2 b,
  all_pok ps = true -> bind ps 0 pos1 kw1 = Some b -> bind ps 0 pos2 kw2 = Some b ->
  arg_ctx_rt H mx ps 0 pos1 kw1 = arg_ctx_rt H mx ps 0 pos2 kw2 /\
  arg_ctx_ast H mx ps 0 (lits pos1) (kwlits kw1) = arg_ctx_rt H mx ps 0 pos2 kw2.
Proof. exact spelling_invariant. Qed.
Print Assumptions C13_spelling_invariant.

(* The argument signature is a function of the binding alone. *)
Theorem C13_by_binding : forall H mx ps pos kw b,
  all_pok ps = true -> bind ps 0 pos kw = Some b ->
  arg_ctx_rt H mx ps 0 pos kw = named_of_binding H mx b /\
  arg_ctx_ast H mx ps 0 (lits pos) (kwlits kw) = named_of_binding H mx b.
Proof. intros H mx ps. exact (by_binding H mx ps 0). Qed.
Print Assumptions C13_by_binding.

(* Different bindings get different argument signatures, up to what value hashing identifies (C05) and the
   None marker; any other coincidence is a digest collision. *)
Theorem C13_binding_injective : forall H mx, (forall x, hex64 (H x)) -> forall b1 b2 l,
  map fst b1 = map fst b2 ->
  Forall (fun nv => clean (subst_none (snd nv)) = true) b1 ->
  Forall (fun nv => clean (subst_none (snd nv)) = true) b2 ->
  named_of_binding H mx b1 = inr l -> named_of_binding H mx b2 = inr l ->
  Forall2 (fun x y => fst x = fst y /\ norm (subst_none (snd x)) = norm (subst_none (snd y))) b1 b2 \/ H_collision H.
Proof. exact binding_injective. Qed.
Print Assumptions C13_binding_injective.

(* The full statement is REFUTED for the marker string (known finding F04-marker): f(a, b=None) called as f(1) and
   as f(1, "__none__"). *)
Theorem C13_marker_refuted : exists ps pos1 pos2 b1 b2,
  all_pok ps = true /\ bind ps 0 pos1 [] = Some b1 /\ bind ps 0 pos2 [] = Some b2 /\ b1 <> b2 /\
  forall H mx, arg_ctx_rt H mx ps 0 pos1 [] = arg_ctx_rt H mx ps 0 pos2 [].
Proof. exact marker_collision. Qed.
Print Assumptions C13_marker_refuted.

Theorem C13_constants_ok : arg_constants_ok = true.
Proof. exact constants_ok. Qed.
Print Assumptions C13_constants_ok.
