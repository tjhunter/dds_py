(* C05 - value hashing is total, deterministic and collision-free on supported values.
   Statements only; proofs are in L0_Hash/HashProofs.v.  H is the digest (sha256 hexdigest in the code). *)
From Coq Require Import List ZArith NArith.
From DDS Require Import Base.Bytes L0_Hash.PyVal L0_Hash.DdsHash L0_Hash.Norm L0_Hash.HashSpec L0_Hash.HashProofs.
Import ListNotations.

(* Totality: hashing ends with a signature or a coded DDS error, never a low-level exception, for every value,
   every nesting, every size and every setting of hash.max_sequence_size. *)
Theorem C05_total : forall H mx v, coded_or_ok (dds_hash H mx v).
Proof. exact hash_total. Qed.
Print Assumptions C05_total.

(* ... and it is a signature whenever the value is built from supported types and respects the size bound. *)
Theorem C05_total_ok : forall H v,
  supported v = true ->
  (exists s, dds_hash H None v = HOk s) /\
  (forall m, (N.of_nat (max_width v) <= m)%N -> exists s, dds_hash H (Some m) v = HOk s).
Proof. intros H v Hs; split; [exact (hash_ok H None v Hs I) | intros m Hm; exact (hash_ok H (Some m) v Hs Hm)]. Qed.
Print Assumptions C05_total_ok.

(* The documented identifications (list = tuple, bool = int, path / date = text form) share one signature. *)
Theorem C05_documented_identifications : forall H mx v1 v2,
  norm_doc v1 = norm_doc v2 -> dds_hash H mx v1 = dds_hash H mx v2.
Proof. exact hash_doc_same. Qed.
Print Assumptions C05_documented_identifications.

(* Collision freedom on clean values: equal signatures imply equal normal forms, or exhibit a digest collision. *)
Theorem C05_collision_free_clean : forall H, (forall b, hex64 (H b)) -> forall mx v1 v2 s,
  clean v1 = true -> clean v2 = true ->
  dds_hash H mx v1 = HOk s -> dds_hash H mx v2 = HOk s ->
  norm v1 = norm v2 \/ H_collision H.
Proof. exact hash_inj_clean. Qed.
Print Assumptions C05_collision_free_clean.

(* [norm] is exact: a value and its normal form are indistinguishable. *)
Theorem C05_norm_exact : forall H v, dds_hash H None (norm v) = dds_hash H None v.
Proof. exact hash_norm. Qed.
Print Assumptions C05_norm_exact.

(* The full statement of the property (only documented identifications collide) is REFUTED by the faithful model:
   known finding F03 (dict = list of pairs; see also the collide_* lemmas for the non-clean classes). *)
Theorem C05_documented_only_refuted : exists v1 v2,
  clean v1 = true /\ clean v2 = true /\ norm_doc v1 <> norm_doc v2 /\
  forall H, dds_hash H None v1 = dds_hash H None v2 /\ dds_hash H (Some 10000%N) v1 = dds_hash H (Some 10000%N) v2.
Proof. exact documented_only_refuted. Qed.
Print Assumptions C05_documented_only_refuted.

(* the regenerated side conditions on the constants of dds/fun_args.py *)
Theorem C05_constants_ok : hash_constants_ok = true.
Proof. exact constants_ok. Qed.
Print Assumptions C05_constants_ok.
