(* C08 - stores round-trip blobs and paths; distinct paths never alias or escape.
   Proofs: L5_Stores/PathMapProofs.v (locations), L5_Stores/LruProofs.v (cache-wrapped store = bare store).
   The round-trip of each store implementation against the dictionary specification (L4_Eval/Store.v) is established by
   the lock-step correspondence (all four stores), not by a refinement proof: see DESIGN.md. *)
From Coq Require Import List String.
From DDS Require Import Base.Bytes L4_Eval.Store L5_Stores.PathMap L5_Stores.PathMapProofs L5_Stores.Lru L5_Stores.LruProofs.
Import ListNotations.

(* Absolute paths that differ in their sequence of non-empty segments never share a location. *)
Theorem C08_locations_injective : forall d p q l,
  loc_of d p = Some l -> loc_of d q = Some l -> segments p = segments q.
Proof. exact loc_injective. Qed.
Print Assumptions C08_locations_injective.

(* Every name created for a path resolves strictly inside the data directory. *)
Theorem C08_locations_contained : forall d p l,
  no_dots d = true -> loc_of d p = Some l ->
  exists s, s <> [] /\ resolve l = resolve d ++ s /\ resolve d = d.
Proof. exact loc_contained. Qed.
Print Assumptions C08_locations_contained.

(* "." and ".." segments (and the path without segments) are refused instead of being handed to the file system. *)
Theorem C08_dots_rejected : forall d p, existsb is_forbidden (segments p) = true -> loc_of d p = None.
Proof. exact dots_rejected. Qed.
Print Assumptions C08_dots_rejected.

(* The cache-wrapped store answers like the bare dictionary for every operation sequence (content-addressed). *)
Theorem C08_cached_store_is_dictionary : forall cap ops, consistent ops = true ->
  run_ops (lru_step sstate spec_step cap) ([], sempty) ops = run_ops spec_step sempty ops.
Proof. exact lru_transparent. Qed.
Print Assumptions C08_cached_store_is_dictionary.

(* The mapping before fix d39b068 is refuted on both counts. *)
Theorem C08_pinned_alias_refuted : forall d, loc_of_pinned d (bs "/a/b/c"%string) = loc_of_pinned d (bs "/ab/c"%string).
Proof. intros d. vm_compute. reflexivity. Qed.
Print Assumptions C08_pinned_alias_refuted.
Theorem C08_pinned_escape_refuted : resolve (loc_of_pinned [bs "data"%string] (bs "/../x"%string)) = [bs "x"%string].
Proof. vm_compute. reflexivity. Qed.
Print Assumptions C08_pinned_escape_refuted.
