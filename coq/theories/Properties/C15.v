(* C15 - restricting the stages makes an evaluation a side-effect-free dry run.  Proofs: L4_Eval/StageProofs.v *)
From Coq Require Import List String Arith.
From Coq Require Import ZArith NArith.
From DDS Require Import Base.Bytes L4_Eval.Stages L4_Eval.StageProofs L0_Hash.PyVal L3_Sig.Program L3_Sig.Sig L4_Eval.DdsEval
     L4_Eval.EvalSpec L4_Eval.EvalProofs.
Import ListNotations.

(* The accepted stage lists are exactly the prefixes of the stage order, spelled with names or enum members. *)
Theorem C15_parse_prefix_iff : forall l r,
  List.length l <= List.length all_phases ->
  (parse_stages (Some l) = POk r <-> (r = firstn (List.length l) all_phases /\ Forall2 denotes l r)).
Proof. exact parse_prefix_iff. Qed.
Print Assumptions C15_parse_prefix_iff.

Theorem C15_default_is_all : parse_stages None = POk all_phases.
Proof. exact parse_none. Qed.
Print Assumptions C15_default_is_all.

(* Gates: the first n stages contain EVAL iff n >= 3 and PATH_COMMIT iff n >= 5. *)
Theorem C15_gates : forall n,
  let st := firstn n all_phases in
  (has_stage Eval st = Nat.leb 3 n) /\ (has_stage PathCommit st = Nat.leb 5 n).
Proof. exact gates_of_prefix. Qed.
Print Assumptions C15_gates.

Theorem C15_constants_ok : stage_constants_ok = true.
Proof. exact stage_constants. Qed.
Print Assumptions C15_constants_ok.

(* An evaluation restricted before EVAL runs no user code, writes no blob and commits no path: the state (store and
   execution log) is unchanged and the result is None. *)
Theorem C15_analysis_only_pure : forall H mx c f sty pos kw s,
  has_stage Eval (c_stages c) = false ->
  snd (dds_call H mx c f sty pos kw s) = s /\
  (forall x sp, analysis H mx c f sty pos kw s = inr (x, sp) -> fst (dds_call H mx c f sty pos kw s) = Ret (RVal VNone)).
Proof. exact analysis_only_pure. Qed.
Print Assumptions C15_analysis_only_pure.

(* One that stops before PATH_COMMIT leaves every path as it was. *)
Theorem C15_no_commit_keeps_paths : forall H mx c f sty pos kw s,
  has_stage PathCommit (c_stages c) = false -> s_paths (snd (dds_call H mx c f sty pos kw s)) = s_paths s.
Proof. exact no_commit_keeps_paths. Qed.
Print Assumptions C15_no_commit_keeps_paths.

(* The signatures computed by a later evaluation are the same as if the restricted run had not happened: the analysis
   reads the store only through its committed paths, which a restricted run does not change; the values returned later
   are the plain values because the store stays sound (C01_history_sound covers restricted calls). *)
Theorem C15_signatures_unaffected : forall H mx c f sty pos kw s1 s2,
  s_paths s1 = s_paths s2 -> analysis H mx c f sty pos kw s1 = analysis H mx c f sty pos kw s2.
Proof. exact analysis_paths_only. Qed.
Print Assumptions C15_signatures_unaffected.
