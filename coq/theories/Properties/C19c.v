(* C19 (write order) - whatever write a DBFS operation stops after (fault, kill), a blob that has_blob reports present can
   be fetched (the metadata, the commit marker, is written after the data), and under 'full' a redirect record never exists
   without the copy it stands for.  The write-level model agrees with the history model of DbfsHist.v on complete operations.
   Proofs: L5_Stores/DbfsStepsProofs.v.  Tie: harness/c19.py compares run_trace with the mutating dbutils calls of the real store. *)
From Coq Require Import List String Bool.
From DDS Require Import Base.Bytes L4_Eval.Store L5_Stores.Dbfs L5_Stores.DbfsHist L5_Stores.DbfsSteps L5_Stores.DbfsStepsProofs.
Import ListNotations.
Local Open Scope string_scope.

(* the commit marker comes after the data: in every state reachable by complete operations followed by one operation
   interrupted after any number of its writes, has_blob implies that the blob is there *)
Theorem C19c_marker_after_data : forall s ops last n,
  dirs_apart s = true -> ops_wf (ops ++ [last]) = true ->
  forall k, all_hex k = true -> has_blob s (run_interrupted s ops last n) k = true ->
    exists c, alookup (blob_uri s k) (run_interrupted s ops last n) = Some c.
Proof. exact marker_after_data. Qed.
Print Assumptions C19c_marker_after_data.

(* 'full': the copy is written before the record, so a record never exists without a copy *)
Theorem C19c_copy_before_record : forall s ops last n,
  d_ct s = CFull -> dirs_apart s = true -> ops_wf (ops ++ [last]) = true ->
  forall p k, wf_path p = true -> fetch_record s (run_interrupted s ops last n) p = Some (record_of k) ->
    exists c, alookup (obj_uri s p) (run_interrupted s ops last n) = Some c.
Proof. exact copy_before_record. Qed.
Print Assumptions C19c_copy_before_record.

(* on complete operations the write-level model is the history model of DbfsHist.v, metadata files aside *)
Theorem C19c_steps_refine_histories : forall s ops,
  dirs_apart s = true -> ops_wf ops = true ->
  forall u, (forall k, u <> meta_uri s k) ->
    alookup u (run_steps s [] ops) = alookup u (fst (drun s [] ops)).
Proof. exact steps_refine_histories. Qed.
Print Assumptions C19c_steps_refine_histories.

(* every completed store_blob leaves the marker: has_blob holds for every key stored by a complete operation *)
Theorem C19c_completed_blob_is_present : forall s ops,
  dirs_apart s = true -> ops_wf ops = true ->
  forall k c, In (DBlob k c) ops -> has_blob s (run_steps s [] ops) k = true.
Proof. exact completed_blob_is_present. Qed.
Print Assumptions C19c_completed_blob_is_present.

(* the opposite order (marker first) is refuted: interrupted between the two writes, has_blob holds and the blob is missing *)
Theorem C19c_marker_first_refuted :
  let s := DStore (bs "dbfs:/s/internal") (bs "dbfs:/s/data") CFull in
  let k := bs "abc0" in
  let fs := apply_steps s [] (firstn 1 [WMeta k; WBlob k (bs "v")]) in
  has_blob s fs k = true /\ alookup (blob_uri s k) fs = None.
Proof. exact marker_first_refuted. Qed.
Print Assumptions C19c_marker_first_refuted.

(* non-vacuity: a concrete interrupted history meets the side conditions *)
Theorem C19c_hypotheses_satisfiable :
  let s := DStore (bs "dbfs:/s/internal") (bs "dbfs:/s/data") CFull in
  let ops := [DBlob (bs "abc0") (bs "one"); DSync [([bs "x"], bs "abc0")]] in
  let last := DSync [([bs "d"; bs "y"], bs "abc0"); ([bs "x"], bs "abc0")] in
  dirs_apart s = true /\ ops_wf (ops ++ [last]) = true /\
  has_blob s (run_interrupted s ops last 1) (bs "abc0") = true /\
  fetch_record s (run_interrupted s ops last 1) [bs "d"; bs "y"] = None /\
  fetch_record s (run_interrupted s ops last 2) [bs "d"; bs "y"] = Some (record_of (bs "abc0")).
Proof. cbv zeta. vm_compute. repeat split; reflexivity. Qed.
Print Assumptions C19c_hypotheses_satisfiable.
