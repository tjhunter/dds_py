(* C18b - the exported graph has no cycle (after the fixes F28, F29).
   Model: L7_Graph/Structure.v (dds/_plotting.py:_structure; _reaches is the saturation `reaches`); proofs:
   L7_Graph/AcyclicProofs.v.  The graph is the directed graph whose edges are the KEYS of the deps dictionary of the final
   state: pairs (from-signature, to-signature), whatever the type of the edge (solid, dashed, dotted).

   Hypotheses (wf_graph_input x R), on the list K = ks x of the kept sub-trees of the interaction tree x in completion
   order (post-order, every occurrence: kept_nodes x = map fi_node (ks x)) and on the fetched references R:
   (w1) wf_sig    signatures identify kept sub-trees (ideal hash): two kept sub-trees with the same signature have the same
                  path, the same loads and the same children.  Shared sub-trees (the same function reached from several
                  places) are allowed - they are the point.
   (w2) wf_path   a path is kept with one signature: two kept sub-trees with the same path have the same signature (dds keeps
                  a path once per evaluation; otherwise the drawn graph can have a cycle: known finding F23).
   (w3) wf_loads  no read before produce: a path loaded by a kept function was kept by a function that completed EARLIER in
                  traversal order, or is not kept at all in this evaluation - and then, if it is a fetched reference (in R),
                  its signature is not the signature of a kept function of this evaluation.
   Not needed: anything about function names, numbers of arguments, sub-trees that are not kept, the agreement of R with the
   kept paths, or a separate "no self loop" condition (GraphSpec.no_self_sig) - it follows from (w2) and (w3). *)
From Coq Require Import List String.
From DDS Require Import Base.Bytes L3_Sig.Sig L7_Graph.Structure L7_Graph.GraphSpec L7_Graph.GraphProofs
  L7_Graph.AcyclicProofs.
Import ListNotations.

(* The reachability test of the code is reachability: dst is src or there is a path from src to dst in the key set. *)
Theorem C18_reaches_spec : forall deps a b,
  reaches deps a b = true <-> a = b \/ path (map fst deps) a b.
Proof. exact reaches_spec. Qed.
Print Assumptions C18_reaches_spec.

(* Adding an edge a -> b when b does not reach a keeps a graph acyclic. *)
Theorem C18_add_edge_acyclic : forall E E' a b,
  acyclic E -> ~ (b = a \/ path E b a) ->
  (forall e, In e E' -> In e E \/ e = (a, b)) -> acyclic E'.
Proof. exact add_edge_acyclic. Qed.
Print Assumptions C18_add_edge_acyclic.

(* The kept sub-trees are the kept occurrences of GraphSpec. *)
Theorem C18_kept_subtrees : forall x, kept_nodes x = map fi_node (ks x).
Proof. exact kept_nodes_ks. Qed.
Print Assumptions C18_kept_subtrees.

(* The graph keyed by signature has no cycle. *)
Theorem C18_graph_acyclic : forall x R,
  wf_graph_input x R -> acyclic (map fst (g_deps (final_state x R))).
Proof. exact structure_acyclic. Qed.
Print Assumptions C18_graph_acyclic.

(* In particular no edge joins a signature to itself. *)
Theorem C18_graph_no_self_edge : forall x R,
  wf_graph_input x R -> forall a, ~ In (a, a) (map fst (g_deps (final_state x R))).
Proof. intros x R H a Hin. apply (structure_acyclic x R H a). apply path_one. exact Hin. Qed.
Print Assumptions C18_graph_no_self_edge.

(* Non-vacuity, with a shared sub-tree: a helper that calls a kept function and then a kept function with a run-time
   argument, reached twice with the same signature from a kept function that also loads a fetched reference and a path
   kept earlier.  The hypotheses hold, so its graph has no cycle ... *)
Theorem C18_shared_example_wf : wf_graph_input ex_shared ex_R.
Proof. exact ex_shared_wf. Qed.
Print Assumptions C18_shared_example_wf.

Theorem C18_shared_example_acyclic : acyclic (map fst (g_deps (final_state ex_shared ex_R))).
Proof. exact ex_shared_acyclic. Qed.
Print Assumptions C18_shared_example_acyclic.

(* ... whereas the code before the fixes F28 and F29 (traverse_old false false) gave it a 2-cycle (known finding F28). *)
Theorem C18_shared_example_old_cycle : path (keys_old false false ex_shared ex_R) (bs "sa"%string) (bs "sa"%string).
Proof. exact ex_shared_old_cycle. Qed.
Print Assumptions C18_shared_example_old_cycle.

(* Second example (known finding F29): with the fix F28 alone, a call-order edge closes a cycle through a solid and a dashed
   edge when a helper is reached again after the function that loads what its first caller keeps; the hypotheses hold and
   the graph computed with the reachability guard has no cycle. *)
Theorem C18_through_load_example_acyclic :
  wf_graph_input ex_through_load [] /\ acyclic (map fst (g_deps (final_state ex_through_load []))).
Proof. split; [exact ex_through_load_wf | exact ex_through_load_acyclic]. Qed.
Print Assumptions C18_through_load_example_acyclic.

Theorem C18_through_load_example_old_cycle : path (keys_old true false ex_through_load []) (bs "sa"%string) (bs "sa"%string).
Proof. exact ex_through_load_old_cycle. Qed.
Print Assumptions C18_through_load_example_old_cycle.

(* traverse_old with both fixes is the model, on the two examples *)
Theorem C18_old_code_is_model_on_examples :
  traverse_old true true ex_shared (GState [] ex_R [] []) = traverse ex_shared (GState [] ex_R [] []) /\
  traverse_old true true ex_through_load (GState [] [] [] []) = traverse ex_through_load (GState [] [] [] []).
Proof. split; [exact ex_shared_old_is_traverse | exact ex_through_load_old_is_traverse]. Qed.
Print Assumptions C18_old_code_is_model_on_examples.
