(* C01 (b) - the ideal digest model of DESIGN.md 4.4 for signatures (L3).
   C01 is relative to the soundness of signatures: a signature must not be shared by two nodes that depend on different
   things.  Mathematically no injectivity statement about XOR-folds of SHA-256 digests is true; what IS proved here is
   that nothing the signature is meant to depend on is dropped or confused by the way dds combines the pieces:
   - L3_Sig/SigTree.v: [sana] is the analysis of Sig.v ([ana]) computed in a free term algebra [dg] - every
     dds_hash_commut is kept as an uninterpreted [DComb] of its keyed entries (same keys, same order), value hashes and
     hashes of source lines are abstract leaves ([hv], [hl] : any functions), a signature found in the store is a leaf;
   - L3_Sig/SigTreeProofs.v: [content] is the explicit description of what a node depends on (hash of its source
     lines; its arguments: name and hash of every literal / default, or, when an argument is only known at run time,
     the call site = the enclosing function up to the call; the paths loaded with the signature found there; the
     contents of its interactions, in order; the external names; the tracked variables with the hash of their value);
     [content_of] computes it from the program by the same recursion as the analysis; [skey A] is the argument context
     handed to [sana]: the named arguments of A and the term of its call site.
   The signature TERM is an injective function of the content.  The only hypotheses are the ones visible in the
   statements; the key prefixes are the constants regenerated from dds/introspect.py (Extracted/ConstSig.v) and their
   non-confusability is proved by computation (key_disjoint), with one recorded exception: k_arg "context" IS
   k_arg_context (an argument named "context" and the call-site context have the same key; the two entries remain
   different terms only because a value hash is a leaf and a context is a combination).
   What remains trusted (DESIGN.md 4.4 / 7): that rendering terms with SHA-256 and XOR ([render], proved to give back
   [ana]: C01_signature_term_faithful) does not identify two different terms. *)
From Coq Require Import List String ZArith NArith.
From DDS Require Import Base.Bytes L0_Hash.PyVal L0_Hash.DdsHash L1_Args.ArgCtx L3_Sig.Program L3_Sig.Sig L3_Sig.SigTree
     L3_Sig.SigTreeProofs.
Import ListNotations.

(* Two analysed nodes - any two programs, any argument contexts, any resolved references, any value-hash functions -
   with the same signature term have the same content. *)
Theorem C01_signature_term_injective : forall hv hl f A R x R' f2 A2 R2 x2 R2',
  sana hv hl f (skey A) R = inr (x, R') -> sana hv hl f2 (skey A2) R2 = inr (x2, R2') ->
  sfi_sig x = sfi_sig x2 ->
  content_of hv hl f A R = content_of hv hl f2 A2 R2 /\ content_of hv hl f A R <> None.
Proof. exact sig_injective. Qed.
Print Assumptions C01_signature_term_injective.

(* The same modulo the order of the entries of every combination (dds_hash_commut is an XOR-fold: the order is not
   observable): [peq] relates two terms that differ by permutations inside combinations; [ceq] relates two contents
   that differ by the order of the named entries (arguments, loads, external names, variables) at any depth - the
   order of the interactions is determined, their index is part of the key. *)
Theorem C01_signature_term_injective_perm : forall hv hl f A R x R' f2 A2 R2 x2 R2',
  sana hv hl f (skey A) R = inr (x, R') -> sana hv hl f2 (skey A2) R2 = inr (x2, R2') ->
  peq (sfi_sig x) (sfi_sig x2) ->
  exists c c2, content_of hv hl f A R = Some c /\ content_of hv hl f2 A2 R2 = Some c2 /\ ceq c c2.
Proof. exact sig_injective_perm. Qed.
Print Assumptions C01_signature_term_injective_perm.

(* Root calls (dds.eval / dds.keep at top level: no call-site context, as in DdsEval.analysis). *)
Theorem C01_signature_term_injective_root : forall hv hl f named R x R' f2 named2 R2 x2 R2',
  sana hv hl f (named, None) R = inr (x, R') -> sana hv hl f2 (named2, None) R2 = inr (x2, R2') ->
  sfi_sig x = sfi_sig x2 ->
  content_of hv hl f (named, None) R = content_of hv hl f2 (named2, None) R2 /\
  content_of hv hl f (named, None) R <> None.
Proof. intros hv hl f named R x R' f2 named2. exact (sig_injective hv hl f (named, None) R x R' f2 (named2, None)). Qed.
Print Assumptions C01_signature_term_injective_root.

(* Nodes whose arguments are all known, under any context key (the key is not read). *)
Theorem C01_signature_term_injective_known : forall hv hl f named key R x R' f2 named2 key2 R2 x2 R2',
  args_known named = true -> args_known named2 = true ->
  sana hv hl f (named, key) R = inr (x, R') -> sana hv hl f2 (named2, key2) R2 = inr (x2, R2') ->
  sfi_sig x = sfi_sig x2 ->
  content_of hv hl f (named, None) R = content_of hv hl f2 (named2, None) R2 /\
  content_of hv hl f (named, None) R <> None.
Proof. exact sig_injective_known. Qed.
Print Assumptions C01_signature_term_injective_known.

(* The term built for a content determines it: as a signature, and as the context of a call site. *)
Theorem C01_content_encoding_injective : forall c c2, (enc c = enc c2 -> c = c2) /\ (enc_site c = enc_site c2 -> c = c2).
Proof. exact (fun c c2 => conj (enc_injective c c2) (enc_site_injective c c2)). Qed.
Print Assumptions C01_content_encoding_injective.

(* [sana] computes exactly the encoding of the content: same failures, same resolved references. *)
Theorem C01_signature_term_is_encoding : forall hv hl f A R,
  match sana hv hl f (skey A) R, cana hv hl f A R with
  | inl e, inl e' => e = e'
  | inr (x, R1), inr (c, R2) => sfi_sig x = enc c /\ R1 = R2
  | _, _ => False
  end.
Proof. exact sana_cana. Qed.
Print Assumptions C01_signature_term_is_encoding.

(* Nothing is dropped: nodes with different contents have different signature terms ... *)
Theorem C01_signature_term_sensitive : forall hv hl f A R x R' f2 A2 R2 x2 R2',
  sana hv hl f (skey A) R = inr (x, R') -> sana hv hl f2 (skey A2) R2 = inr (x2, R2') ->
  content_of hv hl f A R <> content_of hv hl f2 A2 R2 -> sfi_sig x <> sfi_sig x2.
Proof.
  intros hv hl f A R x R' f2 A2 R2 x2 R2' H1 H2 Hne Hsig.
  exact (Hne (proj1 (sig_injective hv hl f A R x R' f2 A2 R2 x2 R2' H1 H2 Hsig))).
Qed.
Print Assumptions C01_signature_term_sensitive.

(* ... and one differing piece is enough: the lines, the arguments (one literal argument hash, or anything in the call
   site), one load (path or signature found), one child, one external name, one variable hash. *)
Theorem C01_signature_term_sensitive_piecewise : forall lh a loads ch exts vars lh2 a2 loads2 ch2 exts2 vars2,
  lh <> lh2 \/ a <> a2 \/ loads <> loads2 \/ ch <> ch2 \/ exts <> exts2 \/ vars <> vars2 ->
  enc (Content lh a loads ch exts vars) <> enc (Content lh2 a2 loads2 ch2 exts2 vars2).
Proof. exact enc_sensitive. Qed.
Print Assumptions C01_signature_term_sensitive_piecewise.

(* The key families are pairwise separated (for all names, paths and indices), and injective in their parameter;
   the exception. *)
Theorem C01_key_disjoint : forall n p i m v,
  let ks := [k_arg n; k_dep p; k_fun_dep i; k_ext_dep m; k_ext_var v; k_body_sig; k_fun_input; k_fun_inter; k_fun_deps] in
  NoDup (map fam ks) /\
  (forall j1 j2 a b, nth_error ks j1 = Some a -> nth_error ks j2 = Some b -> a = b -> j1 = j2).
Proof. exact key_disjoint. Qed.
Print Assumptions C01_key_disjoint.

Theorem C01_key_injective :
  (forall a b, k_arg a = k_arg b -> a = b) /\ (forall a b, k_dep a = k_dep b -> a = b) /\
  (forall a b, k_fun_dep a = k_fun_dep b -> a = b) /\ (forall a b, k_ext_dep a = k_ext_dep b -> a = b) /\
  (forall a b, k_ext_var a = k_ext_var b -> a = b).
Proof. exact (conj k_arg_inj (conj k_dep_inj (conj k_fun_dep_inj (conj k_ext_dep_inj k_ext_var_inj)))). Qed.
Print Assumptions C01_key_injective.

Theorem C01_key_arg_context_is_an_argument_key : k_arg_context = k_arg (bs "context"%string).
Proof. exact k_arg_context_is_k_arg. Qed.
Print Assumptions C01_key_arg_context_is_an_argument_key.

(* Interpreting the terms with a digest function H (XOR-fold of H (key ++ value)) gives the analysis of Sig.v. *)
Theorem C01_signature_term_faithful : forall H mx f named key R,
  ana H mx f (named, option_map (render H) key) (render_pairs H R) =
  match sana (hv0 H mx) (hl0 H mx) f (named, key) R with
  | inl e => inl e
  | inr (x, R') => inr (render_sfi H x, render_pairs H R')
  end.
Proof. exact sana_faithful. Qed.
Print Assumptions C01_signature_term_faithful.

(* Non-vacuity: [ex_f] reads a tracked variable and an external name, keeps [ex_g] with a run-time argument (and a
   default), then loads the kept path; the analysis succeeds, its signature term is the encoding of the expected
   content, which is the content computed from the program. *)
Example C01_signature_term_nonvacuous :
  exists x R', sana ex_hv ex_hl ex_f ([], None) [] = inr (x, R') /\
               sfi_sig x = enc ex_content_f /\
               content_of ex_hv ex_hl ex_f ([], None) [] = Some ex_content_f.
Proof. exact ex_sana_succeeds. Qed.
Print Assumptions C01_signature_term_nonvacuous.
