(* C06 - a process killed at any instant never leaves a store that serves wrong data.
   Model: L6_Conc/LocalProgs.v (the operations of LocalFileStore as small-step programs, one transition per system call,
   torn writes, crash = the process takes no more steps); vocabulary: L6_Conc/ConcSpec.v; proofs: L6_Conc/CrashProofs.v.
   [reachable] ranges over every schedule of every number of processes, every tear size and every crash set: a crash is
   the transition StepCrash, after which the victim's private temporaries stay behind for ever.
   [enc k] / [menc k] are what every writer of key k writes (content addressing: C01's conclusion). *)
From Coq Require Import List String.
From DDS Require Import Base.Bytes L6_Conc.FsOps L6_Conc.LocalProgs L6_Conc.ConcSpec L6_Conc.CrashProofs.
Import ListNotations.

(* At every instant of every execution with crashes: a visible blob file is complete, a visible metadata file is complete
   and its blob is installed, every visible link points to the final name of a blob, and every value a reader returned is
   the complete value of its key - never None-for-present, a truncated or a foreign value. *)
Theorem C06_crash_safe : forall root data enc menc s0 s,
  init_ok root data enc menc s0 -> reachable root data enc menc s0 s ->
  BlobInv root enc menc (s_fs s) /\ LinkInv root (s_fs s) /\
  (forall p r, In p (s_procs s) -> In r (p_outs p) -> good_result enc menc r).
Proof. exact crash_safe. Qed.
Print Assumptions C06_crash_safe.

(* What was stored before the crash stays stored and complete, whatever happens later (no cleanup is ever needed: a later
   process finds has_blob true and fetches the complete value). *)
Theorem C06_stored_blobs_survive : forall root data enc menc s0 s s' k,
  init_ok root data enc menc s0 -> reachable root data enc menc s0 s -> reachable root data enc menc s s' ->
  good_key k = true -> s_fs s (meta root k) <> None -> complete root enc menc (s_fs s') k.
Proof. exact stored_survive. Qed.
Print Assumptions C06_stored_blobs_survive.

(* A path committed before the crash: one step later (any step of any process, or a crash) it is still a link, to its old
   blob or to the blob that a committing process is just swapping in; and it stays a link to some blob for ever. *)
Theorem C06_paths_old_or_new : forall root data enc menc s0 s s' loc t,
  init_ok root data enc menc s0 -> reachable root data enc menc s0 s -> sys_step root data enc menc s s' ->
  visible loc = true -> s_fs s loc = Some (NLink t) ->
  s_fs s' loc = Some (NLink t) \/
  exists p k, In p (s_procs s) /\ swapping p loc k /\ s_fs s' loc = Some (NLink (blob root k)).
Proof. exact link_old_or_new. Qed.
Print Assumptions C06_paths_old_or_new.

Theorem C06_paths_never_lost : forall root data enc menc s0 s s' loc t,
  init_ok root data enc menc s0 -> reachable root data enc menc s0 s -> reachable root data enc menc s s' ->
  visible loc = true -> s_fs s loc = Some (NLink t) ->
  exists k, good_key k = true /\ s_fs s' loc = Some (NLink (blob root k)).
Proof. exact link_never_lost. Qed.
Print Assumptions C06_paths_never_lost.

(* When every process follows the evaluation discipline (a path is pointed only at a key that the process stored earlier or
   that was complete when it started), every visible link resolves to a complete blob at every instant: a load of a
   committed path returns a complete value - the old or the new one. *)
Theorem C06_links_resolve : forall root data enc menc s0 s,
  init_ok root data enc menc s0 -> LinkLive root enc menc (s_fs s0) -> disciplined root enc menc s0 ->
  reachable_nospawn root data enc menc s0 s -> LinkLive root enc menc (s_fs s).
Proof. exact links_live. Qed.
Print Assumptions C06_links_resolve.

(* The hypotheses are satisfiable by a non-trivial system (two processes storing and committing on an initialised store). *)
Theorem C06_nonvacuous : exists root data enc menc s0, init_ok root data enc menc s0 /\ LinkLive root enc menc (s_fs s0) /\
  disciplined root enc menc s0 /\ List.length (s_procs s0) = 2 /\ (forall p, In p (s_procs s0) -> List.length (p_todo p) >= 3).
Proof. exact (ex_intro _ _ (ex_intro _ _ (ex_intro _ _ (ex_intro _ _ (ex_intro _ _ example_system_init))))). Qed.
Print Assumptions C06_nonvacuous.
