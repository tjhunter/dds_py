(* C09 (c) - soundness of signatures for programs WITH dds.load.
   Proofs: L4_Eval/SoundnessLoadA.v (plain meaning with loads, Theorem A with loads), L4_Eval/SoundnessLoad.v (the
   evaluation state machine, histories, corollaries, findings, example), over L4_Eval/SoundnessSite.v, SoundnessA.v and Soundness.v.  Nothing is an Axiom: hypotheses are premises,
   bundled in [luniv_ok] (Theorem A) and [lbase_ok] (evaluation, histories).

   THE PLAIN MEANING WITH LOADS.  [pvl_fn f pvals kept] threads [kept : path -> option value] = the value most recently
   kept at each path in program order: dds.keep(p, ..) and data-function calls update it, dds.load(p) reads it (absent:
   the plain program fails).  It is exactly DdsEval.exec_fn Plain seen through the s_kept component of the state
   (C09_plain_with_loads_is_reference).  An evaluation starts from [kept0 s]: what the committed paths of the store serve.

   HYPOTHESES IN WORDS, beyond those of C01c ([univ_ok]: closed, wf_fn, text -> skeleton, prefix ->
   skeleton, injective line / value hashing; the skeleton includes the decorator path of a function and the literal
   paths of dds.keep / dds.load):
   [luniv_ok] (Theorem A with loads)
   - l_wf: SoundnessLoadA.lwf_fn, for every function of the universe:
       * no apply(g) (executed a second time, never analysed: its loads would read another environment);
       * dds.keep(p, g, ..): g is not itself a data function (one node, two paths);
       * a by-name mention of g that is not a call registers no path (reg_fn g = []).  FINDING F33 (found by this proof,
         reproduced on the real library, REPAIRED by a fix in /repo): the analysis walks the mention as a pseudo-call,
         registers the paths kept below g and accepts a later dds.load of one of them; nothing produces the path.  The load
         used to return None silently; since the fix dds.load of a requested path that has no blob yet raises
         LOAD_BEFORE_STORE (the model follows: DdsEval.exec_step).  C09_byname_producer_rejected.  The program is now
         rejected, but its outcome is still not the plain one (plainly: the error of a never-produced path), so the
         hypothesis stays.
       * the methods of a class other than the first register no path (analysed, not executed: same phenomenon);
       * a body does not keep a path after loading it (such an evaluation is rejected or keeps a path twice anyway).
   - l_root / l_ext_fun / l_ext_leaf: the references fetched from the store for a top-level call are served by the
     store, a stored signature denotes one value and is a leaf of signature terms (discharged by the store invariant).
   [lbase_ok] (evaluation machine) adds
   - b_kwf: kept nodes are FLAT - nothing is kept below a kept node (RESTRICTION of this development, see below);
   - b_root: the top-level function is not itself stored (dds.eval of a plain function).  FINDING F34 (found by this
     proof, reproduced, REPAIRED by the same fix): dds.keep('/p', f) at top level where f loads '/p' was accepted and the
     load returned None; it now fails with LOAD_BEFORE_STORE and changes nothing.  C09_root_keep_self_load_rejected.
     Plainly f reads the previously committed value, so the outcome is still not the plain one: the hypothesis stays.
   - b_root_text: the text of a top-level function is not the text of a kept function of the universe;
   - b_inj: injective rendering on the signature terms of the universe (the cryptographic idealisation);
   - per evaluation, decidable on the analysed tree: b_coherent (no path kept with two signatures: F12/F26) and
     b_ext_disjoint (a path whose reference is fetched from the store is not produced by the evaluation: true with the
     whole-tree pre-pass; the pinned behaviour is F08 / F10b).
   WHAT REMAINS: kept nodes with kept nodes below them (needs a closure invariant of the store: the blobs of the nodes
   below a stored node are stored - true of the model, not proved), stored top-level functions (same invariant), apply(g).
   Suspects: by-name pseudo-call producing a path - F33 (repaired); a path loaded twice around a re-keep - needs the path
   kept twice: F12, excluded by b_coherent; a path kept LATER than it is loaded - rejected (C09_load_before_keep_rejected);
   loads in classes - fine in the first method, the other methods must register nothing; dangling committed path -
   excluded by the invariant [PathsOK], which the theorem maintains (F33 / F34 were the ways to create one). *)
From Coq Require Import List String ZArith NArith.
From DDS Require Import Base.Bytes L0_Hash.PyVal L0_Hash.DdsHash L1_Args.ArgCtx L3_Sig.Program L3_Sig.Sig L3_Sig.SigTree
     L3_Sig.SigTreeProofs L4_Eval.Stages L4_Eval.DdsEval L4_Eval.EvalSpec L4_Eval.EvalProofs
     L4_Eval.SoundnessDefs L4_Eval.SoundnessA L4_Eval.Soundness L4_Eval.SoundnessLoadA L4_Eval.SoundnessLoad.
Import ListNotations.

(* 1. The plain meaning with loads is the reference execution of DdsEval.v. *)
Theorem C09_plain_with_loads_is_reference : forall f pvals s k, klink s k ->
  fst (exec_fn Plain f pvals s) = fst (pvl_fn f pvals k) /\
  klink (snd (exec_fn Plain f pvals s)) (snd (pvl_fn f pvals k)) /\
  same_store s (snd (exec_fn Plain f pvals s)).
Proof. exact exec_plain_pvl. Qed.
Print Assumptions C09_plain_with_loads_is_reference.

(* frame properties: what an analysis / an execution leaves alone *)
Theorem C09_analysis_frame : forall hv hl f A R c R1, cana hv hl f A R = inr (c, R1) ->
  forall p, ~ In p (reg_fn f) -> srlookup p R1 = srlookup p R.
Proof. exact cana_frame. Qed.
Print Assumptions C09_analysis_frame.
Theorem C09_execution_frame : forall f pv k p, ~ In p (reg_fn f) -> snd (pvl_fn f pv k) p = k p.
Proof. exact pvl_frame. Qed.
Print Assumptions C09_execution_frame.

(* 2. THEOREM A WITH LOADS: the content (which records, for every load, the path and the signature found there)
   determines the plain outcome, for consistent nodes ([LCons]: as Cons, plus the resolved references R and the kept
   environment k at the node). *)
Theorem C09_content_determines_value_loads : forall hv hl UVal U RootL Ext, luniv_ok hv hl UVal U RootL Ext ->
  forall g g' A A' R R' pv pv' k k' c R1 R1',
  LCons hv hl RootL g A R pv k -> LCons hv hl RootL g' A' R' pv' k' ->
  cana hv hl g A R = inr (c, R1) -> cana hv hl g' A' R' = inr (c, R1') ->
  fst (pvl_fn g pv k) = fst (pvl_fn g' pv' k').
Proof. exact content_determines_value_loads. Qed.
Print Assumptions C09_content_determines_value_loads.

(* every resolved reference of a consistent node is served - by the store or by a consistent producer node - and a
   signature serves one value *)
Theorem C09_references_served : forall hv hl UVal U RootL Ext, luniv_ok hv hl UVal U RootL Ext ->
  forall g A R pv k, LCons hv hl RootL g A R pv k -> Resp hv hl RootL Ext R k.
Proof. exact LCons_Resp. Qed.
Print Assumptions C09_references_served.
Theorem C09_served_functional : forall hv hl UVal U RootL Ext, luniv_ok hv hl UVal U RootL Ext ->
  forall sg v v', Served hv hl RootL Ext sg v -> Served hv hl RootL Ext sg v' -> v = v'.
Proof. exact Served_functional. Qed.
Print Assumptions C09_served_functional.

(* 3. a store key denotes one value *)
Theorem C09_denotation_functional : forall H mx UVal U RootCall, lbase_ok H mx UVal U RootCall ->
  forall k v v', Den H mx RootCall k v -> Den H mx RootCall k v' -> v = v'.
Proof. exact Den_fun. Qed.
Print Assumptions C09_denotation_functional.

(* top-level calls, with loads *)
Theorem C09_call_loads : forall H mx UVal U RootCall, lbase_ok H mx UVal U RootCall ->
  forall j c f sty pos kw s, RootCall f sty pos kw -> SOK H mx U RootCall j s -> PathsOK s ->
  SOK H mx U RootCall (S (S j)) (snd (dds_call H mx c f sty pos kw s)) /\ PathsOK (snd (dds_call H mx c f sty pos kw s)) /\
  forall x sp pv, analysis H mx c f sty pos kw s = inr (x, sp) -> has_stage Eval (c_stages c) = true ->
                  bind_args (fn_params f) 0 (map RVal pos) (map (fun nv : bytes * pyval => (fst nv, RVal (snd nv))) kw) = Some pv ->
                  fst (dds_call H mx c f sty pos kw s) = fst (pvl_fn f pv (kept0 s)).
Proof. exact call_loads. Qed.
Print Assumptions C09_call_loads.

(* COROLLARY C WITH LOADS (C01_end_to_end without h_noloads). *)
Theorem C09_end_to_end_loads : forall H mx UVal U RootCall, lbase_ok H mx UVal U RootCall ->
  forall l, Forall (in_universe RootCall) l ->
  StoreOK (Den H mx RootCall) (run_calls H mx l st_empty) /\ PathsOK (run_calls H mx l st_empty) /\
  forall l1 c f sty pos kw l2, l = l1 ++ (c, f, sty, pos, kw) :: l2 ->
    let s := run_calls H mx l1 st_empty in
    (forall o, analysis H mx c f sty pos kw s = inl o -> dds_call H mx c f sty pos kw s = (o, s)) /\
    (forall x sp pv, analysis H mx c f sty pos kw s = inr (x, sp) -> has_stage Eval (c_stages c) = true ->
                     bind_args (fn_params f) 0 (map RVal pos) (map (fun nv : bytes * pyval => (fst nv, RVal (snd nv))) kw) = Some pv ->
                     fst (dds_call H mx c f sty pos kw s) = fst (pvl_fn f pv (kept0 s))).
Proof. exact C09_end_to_end_loads_lemma. Qed.
Print Assumptions C09_end_to_end_loads.

(* 4 (a). A load sees the latest keep. *)
Theorem C09_load_sees_latest_keep : forall l e p g pos kw mid en k en1 k1 en2 k2,
  pvl_step (SKeep l e p g pos kw) en k = (inr en1, k1) ->
  ~ In p (reg_steps mid) -> pvl_steps mid en1 k1 = (inr en2, k2) ->
  exists v, e_locals en1 = e_locals en ++ [v] /\ pvl_step (SLoad p) en2 k2 = (inr (add_local en2 v), k2).
Proof. exact load_sees_latest_keep. Qed.
Print Assumptions C09_load_sees_latest_keep.

Theorem C09_load_sees_latest_keep_in_callee : forall p v h pv k, k p = Some v ->
  forall vars exts pre post, fn_bodies h = BCons (Body vars exts (steps_of (pre ++ SLoad p :: post))) BNil ->
  ~ In p (reg_l pre) ->
  forall en1 k1, pvl_steps (steps_of pre) (Env pv (map snd vars) []) k = (inr en1, k1) ->
  pvl_step (SLoad p) en1 k1 = (inr (add_local en1 v), k1).
Proof. exact load_sees_latest_keep_in_callee. Qed.
Print Assumptions C09_load_sees_latest_keep_in_callee.

Theorem C09_data_function_call_sets_kept : forall l e g args p en k en1 k1, fn_annot g = Some p ->
  pvl_step (SCall l e g args) en k = (inr en1, k1) ->
  exists v, e_locals en1 = e_locals en ++ [v] /\ k1 p = Some v.
Proof. exact data_call_sets_kept. Qed.
Print Assumptions C09_data_function_call_sets_kept.

(* ... and the memoised load reads exactly that value (also when the keep was served from the store: the invariant J is
   maintained by the walk in both cases) *)
Theorem C09_memoised_load_reads_kept : forall H sp s k R p sg en, J H sp s k R -> srlookup p R = Some sg ->
  exists v, k p = Some v /\ exec_step (Dds sp) (SLoad p) en s = (inr (add_local en v), s).
Proof. exact dds_load_reads_kept. Qed.
Print Assumptions C09_memoised_load_reads_kept.

(* 4 (b). A kept reader is served from the store iff the signatures found at the paths it loads are unchanged. *)
Theorem C09_reader_key_iff_loaded_signature : forall H mx UVal U RootCall, lbase_ok H mx UVal U RootCall ->
  forall m g A R pv kk x R1 g' A' R' pv' kk' x' R1' lh a l l' ch exts vars Rc Rc',
  LCons (hv0 H mx) (hl0 H mx) (RootLm H mx RootCall (DenN H mx RootCall m)) g A R pv kk ->
  LCons (hv0 H mx) (hl0 H mx) (RootLm H mx RootCall (DenN H mx RootCall m)) g' A' R' pv' kk' ->
  sana (hv0 H mx) (hl0 H mx) g (skey A) R = inr (x, R1) -> sana (hv0 H mx) (hl0 H mx) g' (skey A') R' = inr (x', R1') ->
  cana (hv0 H mx) (hl0 H mx) g A R = inr (Content lh a l ch exts vars, Rc) ->
  cana (hv0 H mx) (hl0 H mx) g' A' R' = inr (Content lh a l' ch exts vars, Rc') ->
  (render H (sfi_sig x) = render H (sfi_sig x') <-> l = l').
Proof. exact reader_key_iff. Qed.
Print Assumptions C09_reader_key_iff_loaded_signature.

Theorem C09_kept_served_or_executed : forall sp en s g q pv key,
  blookup q sp = Some key ->
  (forall v, blookup key (s_blobs s) = Some v ->
     EvalProofs.kept_call (Dds sp) en s g q pv = (inr (add_local en v), s)) /\
  (blookup key (s_blobs s) = None ->
     EvalProofs.kept_call (Dds sp) en s g q pv =
     match exec_fn (Dds sp) g pv s with
     | (Ret v, s') => (inr (add_local en v), st_put key v s')
     | (o, s') => (inl o, s')
     end).
Proof. exact kept_served_or_executed. Qed.
Print Assumptions C09_kept_served_or_executed.

(* 5. NON-VACUITY.  A producer data function ('/d', two versions), a kept reader that loads '/d', dds.eval(main):
   every hypothesis holds ... *)
Theorem C09_universe_example : lbase_ok sx_H None lx_UVal lx_U lx_RootCall.
Proof. exact lx_universe_ok. Qed.
Print Assumptions C09_universe_example.

(* ... and in the history v1, v2, v1 each call returns the plain outcome with loads of its version; the reader is
   executed again exactly when the producer changed (log: p1 rd main / p2 rd main / main). *)
Theorem C09_universe_example_history :
  StoreOK (Den sx_H None lx_RootCall) (run_calls sx_H None lx_history st_empty) /\
  PathsOK (run_calls sx_H None lx_history st_empty) /\
  (let s1 := run_calls sx_H None [lx_callc lx_main1] st_empty in
   fst (dds_call sx_H None lx_cfg lx_main2 StEval [] [] s1) = fst (pvl_fn lx_main2 [] (kept0 s1))) /\
  (let s2 := run_calls sx_H None [lx_callc lx_main1; lx_callc lx_main2] st_empty in
   fst (dds_call sx_H None lx_cfg lx_main1 StEval [] [] s2) = fst (pvl_fn lx_main1 [] (kept0 s2))) /\
  fst (pvl_fn lx_main2 [] (kept0 (run_calls sx_H None [lx_callc lx_main1] st_empty))) =
    Ret (RTup [RVal (VStr (bs "main")); RTup [RVal (VStr (bs "p2"))]; RTup [RVal (VStr (bs "rd")); RTup [RVal (VStr (bs "p2"))]]]) /\
  s_log (run_calls sx_H None lx_history st_empty) = [bs "p1"; bs "rd"; bs "main"; bs "p2"; bs "rd"; bs "main"; bs "main"].
Proof. exact lx_end_to_end. Qed.
Print Assumptions C09_universe_example_history.

(* REGRESSION THEOREMS of the findings F33 / F34 (by computation, on the programs that exhibited them): the evaluations
   now fail with the DDS error LOAD_BEFORE_STORE and change nothing. *)
Theorem C09_byname_producer_rejected :
  dds_call sx_H None lx_cfg fa_f StEval [] [] st_empty = (DdsErr "LOAD_BEFORE_STORE", st_empty) /\
  fst (pvl_fn fa_f [] (kept0 st_empty)) = DdsErr "NONE" /\
  ~ lwf_step (SRef 1 fa_g false).
Proof. exact byname_producer_rejected. Qed.
Print Assumptions C09_byname_producer_rejected.

Theorem C09_root_keep_self_load_rejected :
  let s1 := snd (dds_call sx_H None lx_cfg fb_old (StKeep (bs "/p")) [] [] st_empty) in
  dds_call sx_H None lx_cfg fb_f (StKeep (bs "/p")) [] [] s1 = (DdsErr "LOAD_BEFORE_STORE", s1) /\
  kept0 s1 (bs "/p") = Some (RTup [RVal (VStr (bs "old"))]) /\
  fst (pvl_fn fb_f [] (kept0 s1)) = Ret (RTup [RVal (VStr (bs "f")); RTup [RVal (VStr (bs "old"))]]).
Proof. exact root_keep_self_load_rejected. Qed.
Print Assumptions C09_root_keep_self_load_rejected.

(* a load of a path kept later in the same function is rejected and changes nothing *)
Theorem C09_load_before_keep_rejected :
  let s1 := snd (dds_call sx_H None lx_cfg fa_h (StKeep (bs "/q")) [] [] st_empty) in
  dds_call sx_H None lx_cfg fc_f StEval [] [] s1 = (DdsErr "LOAD_BEFORE_STORE", s1).
Proof. exact load_before_keep_rejected. Qed.
Print Assumptions C09_load_before_keep_rejected.
