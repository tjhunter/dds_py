(* C07 - processes sharing a local store never observe partial or foreign results.
   Same transition system as C06 (L6_Conc/LocalProgs.v): [reachable] ranges over every interleaving of the system calls of
   any number of processes (torn writes included).  Proofs: L6_Conc/CrashProofs.v. *)
From Coq Require Import List String.
From DDS Require Import Base.Bytes L6_Conc.FsOps L6_Conc.LocalProgs L6_Conc.ConcSpec L6_Conc.CrashProofs.
Import ListNotations.

(* Every fetch that returns, returns nothing or the complete value of its key, under every interleaving. *)
Theorem C07_readers_see_complete_values : forall root data enc menc s0 s p r,
  init_ok root data enc menc s0 -> reachable root data enc menc s0 s ->
  In p (s_procs s) -> In r (p_outs p) -> good_result enc menc r.
Proof. intros root data enc menc s0 s p r H0 Hr. apply (crash_safe root data enc menc s0 s H0 Hr). Qed.
Print Assumptions C07_readers_see_complete_values.

(* No reader step fails because of what other processes do: has_blob / fetch_blob / fetch_paths never raise a low-level
   error (they answer absent / DDS error or the value). *)
Theorem C07_readers_never_fail : forall root data enc menc s0 s i p n,
  init_ok root data enc menc s0 -> reachable root data enc menc s0 s ->
  nth_error (s_procs s) i = Some p -> reader_pc (p_pc p) = true ->
  p_pc (snd (pstep root data enc menc (s_fs s) p n)) <> PFailed.
Proof. exact readers_never_fail. Qed.
Print Assumptions C07_readers_never_fail.

(* No writer step fails because of what other processes do, once the store directories exist and the committed locations
   of all processes are pairwise prefix-free (dds rejects overlapping paths): store_blob and sync_paths of a live process
   never reach the failed state. *)
Theorem C07_writers_never_fail : forall root data enc menc s0 s i p n,
  init_ok root data enc menc s0 -> writers_ok root data s0 -> reachable_nospawn root data enc menc s0 s ->
  nth_error (s_procs s) i = Some p -> p_pc p <> PFailed ->
  p_pc (snd (pstep root data enc menc (s_fs s) p n)) <> PFailed.
Proof. exact writers_never_fail. Qed.
Print Assumptions C07_writers_never_fail.

(* Once every process has finished (or crashed), the store serves a complete blob for every committed path, and a path that
   only one key was ever committed to serves exactly that key. *)
Theorem C07_quiescent_correct : forall root data enc menc s0 s,
  init_ok root data enc menc s0 -> LinkLive root enc menc (s_fs s0) -> disciplined root enc menc s0 ->
  reachable_nospawn root data enc menc s0 s -> LinkLive root enc menc (s_fs s).
Proof. exact links_live. Qed.
Print Assumptions C07_quiescent_correct.

Theorem C07_last_committer_wins : forall root data enc menc s0 s s' i p n loc k items,
  init_ok root data enc menc s0 -> reachable root data enc menc s0 s ->
  nth_error (s_procs s) i = Some p -> p_pc p = PSP_replace loc k items ->
  s' = fst (pstep root data enc menc (s_fs s) p n) -> p_pc (snd (pstep root data enc menc (s_fs s) p n)) <> PFailed ->
  s' loc = Some (NLink (blob root k)).
Proof. exact commit_installs. Qed.
Print Assumptions C07_last_committer_wins.

(* The hypotheses of C07_writers_never_fail are jointly satisfiable by a system that commits a location. *)
Theorem C07_nonvacuous : exists root data enc menc s0,
  init_ok root data enc menc s0 /\ writers_ok root data s0 /\ exists loc, commits s0 loc.
Proof. exact (ex_intro _ _ (ex_intro _ _ (ex_intro _ _ (ex_intro _ _ (ex_intro _ _ example_writers_ok))))). Qed.
Print Assumptions C07_nonvacuous.
