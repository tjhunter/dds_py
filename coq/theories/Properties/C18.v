(* C18 - graph export is faithful and does not perturb the evaluation.
   Model: L7_Graph/Structure.v (dds/_plotting.py:_structure, mutable dictionaries included); specification:
   L7_Graph/GraphSpec.v (computed from the interaction tree alone); proofs: L7_Graph/GraphProofs.v.
   The exported graph is a function of the interaction tree that the analysis computes anyway and of the references
   fetched before it (structure x R): the result and the signatures of the evaluation cannot depend on the option - tied
   by the correspondence (with / without export).  Edges are keyed by (signature, signature), as in the code. *)
From Coq Require Import List String.
From DDS Require Import Base.Bytes L3_Sig.Sig L7_Graph.Structure L7_Graph.GraphSpec L7_Graph.GraphProofs.
Import ListNotations.

(* Every kept occurrence has a node carrying its signature ... *)
Theorem C18_every_kept_signature_is_a_node : forall x R n,
  In n (kept_nodes x) -> exists p, alook (snd n) (g_nodes (final_state x R)) = Some (p, snd n).
Proof.
  intros x R n Hin. destruct (final_graph x R) as [_ [_ [_ Hn]]].
  destruct (Hn (snd n) (in_map snd _ _ Hin)) as [[p s] [Hv [_ Hs]]]. cbn [snd] in Hs. subst s. exists p. exact Hv.
Qed.
Print Assumptions C18_every_kept_signature_is_a_node.

(* ... and appears under its own path when no two kept occurrences or fetched references share a signature under different
   paths (see C18_two_paths_one_signature_refuted for what happens otherwise: known finding F15). *)
Theorem C18_every_kept_path_is_a_node : forall x R,
  sig_determines_path x R -> forall n, In n (kept_nodes x) -> In n (fst (structure x R)).
Proof. intros x R [Huniq _]. apply kept_path_is_node. exact Huniq. Qed.
Print Assumptions C18_every_kept_path_is_a_node.

(* Solid edges: exactly the pairs (u, v) such that the function kept at v reaches the keep of u without crossing another
   kept function. *)
Theorem C18_solid_edges_exact : forall x R k,
  In k (keys_of_type EDirect (final_state x R)) <-> In k (solid_spec x).
Proof.
  intros x R k. rewrite keys_of_type_In. split.
  - intros [e [Hin Ht]]. apply final_typed in Hin. rewrite Ht in Hin. exact Hin.
  - apply (final_graph x R).
Qed.
Print Assumptions C18_solid_edges_exact.

(* Dashed edges only come from loads: a dashed edge into v is labelled with a path that the function kept at v loads. *)
Theorem C18_dashed_edges_are_loads : forall x R k e,
  In (k, e) (edges_of_type EIndirect (final_state x R)) -> In (e_from e, snd k) (dashed_spec x).
Proof.
  intros x R k e H. apply edges_of_type_In in H. destruct H as [Hin Ht].
  apply final_typed in Hin. rewrite Ht in Hin. exact Hin.
Qed.
Print Assumptions C18_dashed_edges_are_loads.

(* Any further (dotted) edge joins a head node of an earlier sibling call to a head node of a later sibling call that takes
   arguments. *)
Theorem C18_dotted_edges_are_call_order : forall x R k,
  In k (keys_of_type EImplicit (final_state x R)) -> In k (dotted_allowed x).
Proof.
  intros x R k H. apply keys_of_type_In in H. destruct H as [e [Hin Ht]].
  apply final_typed in Hin. rewrite Ht in Hin. exact Hin.
Qed.
Print Assumptions C18_dotted_edges_are_call_order.

(* No edge joins a signature to itself (after fix 84d99a8), provided no kept function has the signature of one of its own
   head nodes or loaded references (signatures are digests of strictly larger content). *)
Theorem C18_no_self_loop : forall x R k e,
  no_self_sig x R -> In (k, e) (g_deps (final_state x R)) -> fst k <> snd k.
Proof. exact no_self_loop. Qed.
Print Assumptions C18_no_self_loop.

(* Known finding F15: two paths kept with one signature share a node - the first path is missing from the graph. *)
Theorem C18_two_paths_one_signature_refuted : exists x n,
  In n (kept_nodes x) /\ ~ In (fst n) (map fst (fst (structure x []))).
Proof.
  exists ex_two_paths, (bs "/a", bs "s")%string. split.
  - vm_compute. left. reflexivity.
  - vm_compute. intros [H | H]; [discriminate H | exact H].
Qed.
Print Assumptions C18_two_paths_one_signature_refuted.

(* Known finding F23: the same path kept with two signatures (the callee of a keep is also analysed as a by-name reference,
   with another call-site context) yields a drawn graph (nodes named by path) with a cycle, although the graph keyed by
   signature has none. *)
Theorem C18_path_cycle_refuted : exists x a b,
  In (a, b) (path_edges (structure x [])) /\ In (b, a) (path_edges (structure x [])) /\ a <> b.
Proof. exact path_cycle_refuted. Qed.
Print Assumptions C18_path_cycle_refuted.
