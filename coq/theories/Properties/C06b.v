(* C06 (continued) - recovery after a crash: the file system left behind by ANY execution with crashes is a consistent
   dictionary, and a new process gets the dictionary's answers from it.
   C06 says what every reader may rely on at every instant; C08b says that one process running alone refines a
   dictionary, from a file system related to an abstract state by R - but R forbids temporaries, so it does not hold of
   a file system on which a process was killed.  Here Rp pid D generalises R (temporaries of OTHER pids may exist
   anywhere; D = directories below data that no committed location accounts for), the refinement is proved for Rp,
   and Rp is derived from the crash invariants of L6_Conc/CrashProofs.v for every reachable state and every fresh pid.
   Proofs: L6_Conc/SeqRefine.v (Rp, refinement), L6_Conc/Recovery.v (connection, example).
   Hypotheses on the initial state s0, beyond init_ok: writers_ok (the store was initialised, committed locations do not
   get in each other's way), LinkLive + disciplined (paths are pointed at stored keys), DataTree (below data there are
   only directories and links, sitting in directories), finite_fs (finitely many names exist).
   Side condition on the recovering process, beyond those of C08b: op_avoid - it does not commit a location that is a
   directory in the file system left behind (os.replace onto a directory fails: a process killed in
   sync_paths [(data/d/p, k)] after mkdir data/d makes a later sync_paths [(data/d, k)] raise). *)
From Coq Require Import List String.
From DDS Require Import Base.Bytes L6_Conc.FsOps L6_Conc.LocalProgs L6_Conc.ConcSpec L6_Conc.CrashProofs L6_Conc.SeqRefine
  L6_Conc.Recovery.
Import ListNotations.

(* The refinement with leftovers: a process whose pid has no temporary in the file system returns the dictionary's
   answers, ends in an Rp-related state, and leaves every non-visible name (the leftovers) exactly as it was. *)
Theorem C06_seq_refines_dictionary_with_leftovers : forall (root data : path) (enc menc : bytes -> bytes)
    (D : path -> Prop) (fs : fsys) (st : astate) (p : proc) (ops : list opcall),
  separated root data ->
  Rp root data enc menc (p_pid p) D fs st ->
  p_pc p = PIdle -> p_outs p = [] -> p_todo p = ops ->
  Forall (good_op data) ops ->
  locs_ok root data enc menc st ops ->
  stored_ok root enc menc st ops ->
  Forall (op_avoid D) ops ->
  exists fuel, let '(fs', p', _) := run_seq root data enc menc fuel fs p [] in
    p_pc p' = PIdle /\ p_todo p' = [] /\
    p_outs p' = spec_run root enc menc st ops /\
    Rp root data enc menc (p_pid p) D fs' (spec_state root enc menc st ops) /\
    (forall x, visible x = false -> fs' x = fs x).
Proof. exact seq_refines_dictionary_with_leftovers. Qed.
Print Assumptions C06_seq_refines_dictionary_with_leftovers.

(* R (no leftovers, C08b) is the special case: no temporary of anybody, no unaccounted directory. *)
Theorem C06_R_is_Rp_without_leftovers : forall (root data : path) (enc menc : bytes -> bytes) (fs : fsys) (st : astate),
  R root data enc menc fs st <->
  (Rp root data enc menc 0 no_dirs fs st /\ forall x, visible x = false -> fs x = None).
Proof. intros. split; intro H; exact H. Qed.
Print Assumptions C06_R_is_Rp_without_leftovers.

(* Every state reachable with crashes is Rp-related, for every pid that no process uses, to a dictionary state that is
   exactly what the file system shows: a key is stored iff its metadata file exists; a location below data maps to k
   iff it is a link to the blob of k. *)
Theorem C06_recovery_refines : forall (root data : path) (enc menc : bytes -> bytes) (s0 s : sys),
  init_ok root data enc menc s0 ->
  writers_ok root data s0 ->
  LinkLive root enc menc (s_fs s0) ->
  disciplined root enc menc s0 ->
  DataTree data (s_fs s0) ->
  finite_fs (s_fs s0) ->
  reachable_nospawn root data enc menc s0 s ->
  forall pid', (forall p, In p (s_procs s) -> p_pid p <> pid') ->
  exists st,
    Rp root data enc menc pid' (dirs_of (s_fs s)) (s_fs s) st /\
    (forall k, good_key k = true -> (In k (a_keys st) <-> s_fs s (meta root k) <> None)) /\
    (forall loc k, good_loc data loc -> (lookup loc (a_paths st) = Some k <-> s_fs s loc = Some (NLink (blob root k)))).
Proof. exact recovery_refines. Qed.
Print Assumptions C06_recovery_refines.

(* A new process that runs alone on the file system left behind (everybody else finished or was killed - or simply takes
   no more steps) gets exactly the dictionary's answers for the state the file system shows. *)
Theorem C06_recovered_store_is_a_dictionary : forall (root data : path) (enc menc : bytes -> bytes) (s0 s : sys),
  init_ok root data enc menc s0 ->
  writers_ok root data s0 ->
  LinkLive root enc menc (s_fs s0) ->
  disciplined root enc menc s0 ->
  DataTree data (s_fs s0) ->
  finite_fs (s_fs s0) ->
  reachable_nospawn root data enc menc s0 s ->
  forall pid', (forall p, In p (s_procs s) -> p_pid p <> pid') ->
  exists st,
    ((forall k, good_key k = true -> (In k (a_keys st) <-> s_fs s (meta root k) <> None)) /\
     (forall loc k, good_loc data loc -> (lookup loc (a_paths st) = Some k <-> s_fs s loc = Some (NLink (blob root k))))) /\
    forall p ops, p_pid p = pid' -> p_pc p = PIdle -> p_outs p = [] -> p_todo p = ops ->
      Forall (good_op data) ops ->
      locs_ok root data enc menc st ops ->
      stored_ok root enc menc st ops ->
      Forall (op_avoid (dirs_of (s_fs s))) ops ->
      exists fuel, let '(fs', p', _) := run_seq root data enc menc fuel (s_fs s) p [] in
        p_pc p' = PIdle /\ p_todo p' = [] /\
        p_outs p' = spec_run root enc menc st ops /\
        Rp root data enc menc pid' (dirs_of (s_fs s)) fs' (spec_state root enc menc st ops).
Proof. exact recovered_store_is_a_dictionary. Qed.
Print Assumptions C06_recovered_store_is_a_dictionary.

(* In particular, has_blob(k) is true exactly for the keys whose store_blob completed the rename of the metadata file,
   and fetch_blob(k) then returns the complete value (never a truncated one: a killed writer only leaves temporaries). *)
Theorem C06_recovered_has_fetch : forall (root data : path) (enc menc : bytes -> bytes) (s0 s : sys),
  init_ok root data enc menc s0 ->
  writers_ok root data s0 ->
  LinkLive root enc menc (s_fs s0) ->
  disciplined root enc menc s0 ->
  DataTree data (s_fs s0) ->
  finite_fs (s_fs s0) ->
  reachable_nospawn root data enc menc s0 s ->
  forall p k, (forall q, In q (s_procs s) -> p_pid q <> p_pid p) ->
    p_pc p = PIdle -> p_outs p = [] -> p_todo p = [OpHas k; OpFetch k] -> good_key k = true ->
    exists fuel, let '(_, p', _) := run_seq root data enc menc fuel (s_fs s) p [] in
      p_pc p' = PIdle /\ p_todo p' = [] /\
      ((s_fs s (meta root k) <> None /\ p_outs p' = [RBool true; RBlob k (menc k) (enc k)]) \/
       (s_fs s (meta root k) = None /\ p_outs p' = [RBool false; RNone])).
Proof. exact recovered_has_fetch. Qed.
Print Assumptions C06_recovered_has_fetch.

(* ... and a location whose link swap completed (to the old or to the new blob) resolves to a key whose blob and metadata
   are complete; any other location strictly below data is reported as not committed. *)
Theorem C06_recovered_fetch_path : forall (root data : path) (enc menc : bytes -> bytes) (s0 s : sys),
  init_ok root data enc menc s0 ->
  writers_ok root data s0 ->
  LinkLive root enc menc (s_fs s0) ->
  disciplined root enc menc s0 ->
  DataTree data (s_fs s0) ->
  finite_fs (s_fs s0) ->
  reachable_nospawn root data enc menc s0 s ->
  forall p loc, (forall q, In q (s_procs s) -> p_pid q <> p_pid p) ->
    p_pc p = PIdle -> p_outs p = [] -> p_todo p = [OpFetchPath loc] -> good_loc data loc ->
    exists fuel, let '(_, p', _) := run_seq root data enc menc fuel (s_fs s) p [] in
      p_pc p' = PIdle /\ p_todo p' = [] /\
      ((exists k, good_key k = true /\ s_fs s loc = Some (NLink (blob root k)) /\ complete root enc menc (s_fs s) k /\
                  p_outs p' = [RKey (blob root k)]) \/
       ((forall t, s_fs s loc <> Some (NLink t)) /\ p_outs p' = [RErr])).
Proof. exact recovered_fetch_path. Qed.
Print Assumptions C06_recovered_fetch_path.

(* Non-vacuity: in the example system of C06, process 1 initialises, installs the blob of ex_key, creates the temporary
   of the metadata file and is killed; process 2 is killed too (a concrete schedule, by computation).  The hypotheses
   above hold; a temporary of the dead process is still there; the new process 3 is told that ex_key is absent, stores
   it, and then finds it with its complete value. *)
Theorem C06_recovery_example :
  reachable_nospawn ex_root ex_data (fun k => k) (fun k => k) ex_sys rx_sys /\
  (forall p, In p (s_procs rx_sys) -> p_pc p = PFailed) /\
  s_fs rx_sys (blob ex_root ex_key) = Some (NFile ex_key) /\
  s_fs rx_sys (meta ex_root ex_key) = None /\
  s_fs rx_sys (tmp_of (meta ex_root ex_key) 1 1) = Some (NFile []) /\
  exists fuel,
    let '(_, p', _) := run_seq ex_root ex_data (fun k => k) (fun k => k) fuel (s_fs rx_sys)
                               (Proc 3 0 PIdle [OpHas ex_key; OpStore ex_key; OpHas ex_key; OpFetch ex_key] []) [] in
    p_pc p' = PIdle /\ p_todo p' = [] /\
    p_outs p' = [RBool false; RUnit; RBool true; RBlob ex_key ex_key ex_key].
Proof. exact recovery_example. Qed.
Print Assumptions C06_recovery_example.
