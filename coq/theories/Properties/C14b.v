(* C14 (second part) - what the analysis discovers in a function of the generated grammar: every call written in the
   body contributes, the callee of a nested keep is additionally referenced by name, every module variable read
   contributes by value or by canonical name.  The syntax (L2_Disc/MiniPy.v) is what the harness transcribes; the
   derivation of the analysis view (L2_Disc/Visitors.v:discover) models dds/introspect.py's visitors and is compared
   with the harness-side derivation on every generated function (harness/progs.py:check_discover).
   Proofs: L2_Disc/DiscProofs.v, L2_Disc/DiscCheck.v *)
From Coq Require Import List String ZArith Sorted.
From DDS Require Import Base.Bytes L0_Hash.PyVal L1_Args.ArgCtx L2_Disc.MiniPy L3_Sig.Program L2_Disc.Visitors
  L2_Disc.DiscProofs L2_Disc.DiscCheck.
Import ListNotations.

(* The callees of the g(...) / dds.keep(p, g, ...) / first-mention vlogmod.apply(g) statements of f are exactly, and in
   statement order, the callees of the SCall / SKeep / executed-SRef steps of its analysis. *)
Theorem C14_discover_calls_complete : forall f,
  step_calls (disc_steps f) = map (fun kg => (fst kg, discover (snd kg))) (stmt_calls [] (mfn_stmts f)).
Proof. intros f. rewrite discover_steps_spec. apply spec_calls. Qed.
Print Assumptions C14_discover_calls_complete.

(* statement by statement, with line numbers and arguments *)
Theorem C14_discover_call_steps : forall f,
  let names := read_names (mfn_modvars f) in
  (forall line sp g args, In (MCall line sp g args) (mfn_stmts f) ->
     In (SCall line line (discover g) (map (expr_of names) args)) (disc_steps f)) /\
  (forall line eline rl path sp g pos kw, In (MKeep line eline rl path sp g pos kw) (mfn_stmts f) ->
     In (SKeep line eline path (discover g) (pos_of names pos) (kw_of names kw)) (disc_steps f)) /\
  (forall path, In (MLoad path) (mfn_stmts f) -> In (SLoad path) (disc_steps f)) /\
  (forall pre post line sp g, mfn_stmts f = pre ++ MApply line sp g :: post ->
     ~ In (sp_head sp) (mentioned_before pre (MApply line sp g)) ->
     In (SRef line (discover g) true) (disc_steps f)) /\
  (forall pre post line sp g, mfn_stmts f = pre ++ MApply line sp g :: post ->
     In (sp_head sp) (mentioned_before pre (MApply line sp g)) ->
     In (SApply (discover g)) (disc_steps f)).
Proof.
  intros f names. repeat split.
  - intros line sp g args H. destruct (disc_steps_of_stmt f _ H) as [pre Hi]. apply Hi. left. reflexivity.
  - intros line eline rl path sp g pos kw H. destruct (disc_steps_of_stmt f _ H) as [pre Hi]. apply Hi. left. reflexivity.
  - intros path H. destruct (disc_steps_of_stmt f _ H) as [pre Hi]. apply Hi. left. reflexivity.
  - intros pre post line sp g H HF. apply disc_steps_In. exists pre, (MApply line sp g), post. split; [exact H|].
    apply (first_mentionb_iff pre (MApply line sp g) sp eq_refl) in HF. rewrite HF. left. reflexivity.
  - intros pre post line sp g H HF. apply disc_steps_In. exists pre, (MApply line sp g), post. split; [exact H|].
    destruct (first_mentionb pre (MApply line sp g)) eqn:E; [|left; reflexivity].
    apply (first_mentionb_iff pre (MApply line sp g) sp eq_refl) in E. contradiction.
Qed.
Print Assumptions C14_discover_call_steps.

(* The by-name pseudo call: for dds.keep(path, g, ...) whose callee name was not mentioned before, the SKeep step is
   immediately followed by `SRef refline (discover g) false` (g analysed as a call without arguments). *)
Theorem C14_discover_keep_callee_also_referenced : forall f pre post line eline refline path sp g pos kw,
  mfn_stmts f = pre ++ MKeep line eline refline path sp g pos kw :: post ->
  ~ In (sp_head sp) (mentioned_before pre (MKeep line eline refline path sp g pos kw)) ->
  exists before after,
    disc_steps f =
    before ++ SKeep line eline path (discover g) (pos_of (read_names (mfn_modvars f)) pos) (kw_of (read_names (mfn_modvars f)) kw)
           :: SRef refline (discover g) false :: after.
Proof.
  intros f pre post line eline rl path sp g pos kw H HF. rewrite (disc_steps_split f _ _ _ H).
  apply (first_mentionb_iff pre (MKeep line eline rl path sp g pos kw) sp eq_refl) in HF. rewrite HF.
  cbn [spec_steps app]. eexists. eexists. reflexivity.
Qed.
Print Assumptions C14_discover_keep_callee_also_referenced.

(* ... and a callee name that was mentioned before is not referenced again *)
Theorem C14_discover_keep_callee_mentioned_before : forall f pre post line eline refline path sp g pos kw,
  mfn_stmts f = pre ++ MKeep line eline refline path sp g pos kw :: post ->
  In (sp_head sp) (mentioned_before pre (MKeep line eline refline path sp g pos kw)) ->
  disc_steps f =
  spec_from discover (read_names (mfn_modvars f)) [] pre
  ++ SKeep line eline path (discover g) (pos_of (read_names (mfn_modvars f)) pos) (kw_of (read_names (mfn_modvars f)) kw)
  :: spec_from discover (read_names (mfn_modvars f)) (pre ++ [MKeep line eline refline path sp g pos kw]) post.
Proof.
  intros f pre post line eline rl path sp g pos kw H HF. rewrite (disc_steps_split f _ _ _ H).
  destruct (first_mentionb pre (MKeep line eline rl path sp g pos kw)) eqn:E; [|reflexivity].
  apply (first_mentionb_iff pre (MKeep line eline rl path sp g pos kw) sp eq_refl) in E. contradiction.
Qed.
Print Assumptions C14_discover_keep_callee_mentioned_before.

(* "mentioned before": `_salt`, and for every earlier statement j its target x<j>, the head of its callee expression,
   `dds` for keep / load, `vlogmod` for apply *)
Theorem C14_marked_before_spec : forall pre x,
  In x (marked_before pre) <-> x = salt_name \/ exists j s, nth_error pre j = Some s /\ In x (stmt_marks j s).
Proof.
  intros pre x. unfold marked_before. rewrite in_app_iff, marks_of_spec. simpl. split.
  - intros [H|[H|[]]]; [right; exact H | left; auto].
  - intros [H|H]; [right; left; auto | left; exact H].
Qed.
Print Assumptions C14_marked_before_spec.

(* the interactions of a function in terms of its syntax alone (no threaded set of marked names) *)
Theorem C14_discover_steps_spec : forall f,
  disc_steps f = spec_from discover (read_names (mfn_modvars f)) [] (mfn_stmts f).
Proof. exact discover_steps_spec. Qed.
Print Assumptions C14_discover_steps_spec.

(* Every variable read contributes: by value when of a tracked type, by canonical name otherwise; so does every
   non-accepted name mentioned; both maps are sorted by name. *)
Theorem C14_discover_vars_complete : forall f,
  (forall n v c, first_entry n (mfn_modvars f) = Some (true, v, c) -> In (n, v) (disc_vars f)) /\
  (forall n v c, first_entry n (mfn_modvars f) = Some (false, v, c) -> In (n, c) (disc_exts f)) /\
  (forall n c, In (n, c) (mfn_helpers f) -> In (n, c) (disc_exts f)) /\
  Sorted by_name (disc_vars f) /\ Sorted by_name (disc_exts f).
Proof.
  intros f. destruct (disc_sorted f). repeat split; try assumption.
  - intros n v c E. apply disc_vars_In. eauto.
  - intros n v c E. apply disc_exts_In. eauto.
  - intros n c E. apply disc_exts_In. auto.
Qed.
Print Assumptions C14_discover_vars_complete.

Theorem C14_discover_vars_complete_nodup : forall f,
  NoDup (map fst (mfn_modvars f)) ->
  (forall n v c, In (n, (true, v, c)) (mfn_modvars f) -> In (n, v) (disc_vars f)) /\
  (forall n v c, In (n, (false, v, c)) (mfn_modvars f) -> In (n, c) (disc_exts f)).
Proof.
  intros f ND. split; intros n v c H; [apply disc_vars_In | apply disc_exts_In; left];
    eexists; apply first_entry_nodup; eassumption.
Qed.
Print Assumptions C14_discover_vars_complete_nodup.

Theorem C14_discover_vars_sound : forall f,
  (forall n v, In (n, v) (disc_vars f) -> exists c, In (n, (true, v, c)) (mfn_modvars f)) /\
  (forall n c, In (n, c) (disc_exts f) ->
     (exists v, In (n, (false, v, c)) (mfn_modvars f)) \/ In (n, c) (mfn_helpers f)) /\
  List.length (disc_vars f) <= List.length (mfn_modvars f).
Proof.
  intros f. repeat split.
  - intros n v H. apply disc_vars_In in H. destruct H as [c H]. exists c. apply first_entry_In, H.
  - intros n c H. apply disc_exts_In in H. destruct H as [[v H] | H]; [left; exists v; apply first_entry_In, H | right; exact H].
  - apply disc_vars_length.
Qed.
Print Assumptions C14_discover_vars_sound.

(* the order is the order of the names as texts *)
Theorem C14_name_order_antisym : forall a b, bytes_leb a b = true -> bytes_leb b a = true -> a = b.
Proof. exact bytes_leb_antisym. Qed.
Print Assumptions C14_name_order_antisym.

(* The text is not touched. *)
Theorem C14_discover_preserves_text : forall f,
  fn_lines (discover f) = mfn_lines f /\ fn_params (discover f) = mfn_params f /\
  fn_annot (discover f) = mfn_annot f /\ fn_tag (discover f) = mfn_tag f /\
  fn_raises (discover f) = mfn_raises f /\ fn_name (discover f) = mfn_cname f /\
  fn_is_class (discover f) = mfn_is_class f.
Proof. destruct f. repeat split. Qed.
Print Assumptions C14_discover_preserves_text.

(* A function has one body.  A class (`class f:` with `__init__`, whose statements are the ones listed, and
   `def get(self): return self.v`) has one body per method, in source order; `get` mentions only `self`, which is not a
   name of the module: it contributes no variable, no external name and no interaction (its signature is made of the
   class's text and argument context only). *)
Theorem C14_discover_bodies : forall f,
  fn_bodies (discover f) =
  BCons (Body (disc_vars f) (disc_exts f) (steps_of (disc_steps f)))
        (if mfn_is_class f then BCons (Body [] [] SNil) BNil else BNil).
Proof. intros f. rewrite disc_steps_eq. destruct f. reflexivity. Qed.
Print Assumptions C14_discover_bodies.

(* Every function mentioned at any depth is a node of the analysis tree, and there is no other node. *)
Theorem C14_discover_tree_complete : forall f h, mfn_reach f h -> fn_reach (discover f) (discover h).
Proof. exact discover_tree_complete. Qed.
Print Assumptions C14_discover_tree_complete.

Theorem C14_discover_tree_sound : forall f k, fn_reach (discover f) k -> exists h, mfn_reach f h /\ k = discover h.
Proof. exact discover_tree_sound. Qed.
Print Assumptions C14_discover_tree_sound.

(* when no class is written anywhere in the syntax tree, every node is a plain function with a single body *)
Theorem C14_discover_plain : forall f, mfn_no_class f = true -> plain_fn (discover f) = true.
Proof. exact discover_plain. Qed.
Print Assumptions C14_discover_plain.

(* in general every node is a plain function with a single body or a class with exactly the two bodies above *)
Theorem C14_discover_shaped : forall f, shaped_fn (discover f) = true.
Proof. exact discover_shaped. Qed.
Print Assumptions C14_discover_shaped.

Theorem C14_plain_fn_shaped : forall f, plain_fn f = true -> shaped_fn f = true.
Proof. exact (proj1 plain_shaped). Qed.
Print Assumptions C14_plain_fn_shaped.

(* a negative number written as an argument of a nested keep is not an ast.Constant: it is a run-time argument *)
Theorem C14_negative_literal_is_runtime : forall z, (z < 0)%Z -> aarg_of (MLit (VInt z)) = ARun.
Proof. exact negative_literal_is_runtime. Qed.
Print Assumptions C14_negative_literal_is_runtime.

Theorem C14_computed_expression_is_runtime : forall v, aarg_of (MComputed v) = ARun.
Proof. reflexivity. Qed.
Print Assumptions C14_computed_expression_is_runtime.

(* the comparison used by the harness check is exact: "ok" means Leibniz equality of the two analysis views *)
Theorem C14_check_same_ok : forall m expected, check_same m expected = "ok"%string -> discover m = expected.
Proof. exact check_same_ok. Qed.
Print Assumptions C14_check_same_ok.
