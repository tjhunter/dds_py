(* The graph computed by L7_Graph/Structure.v (mutable dictionaries) meets the specification of L7_Graph/GraphSpec.v
   (computed from the interaction tree alone).  trav_ind follows traverse phase by phase (children, implicit-edge loop,
   node phase of a kept function) and hands its user a summary of each phase; graph_inv is the one invariant behind the
   results of Properties/C18.v, and L7_Graph/AcyclicProofs.v runs its own invariant through trav_ind. *)
From Coq Require Import List String Bool Arith.
From DDS Require Import Base.Bytes Base.BytesFacts L3_Sig.Sig L7_Graph.Structure L7_Graph.GraphSpec.
Import ListNotations.

(* The counterexamples of the known findings F15 (used in Properties/C18.v) and F23: concrete trees, by computation *)
Section Refuted.
Local Open Scope string_scope.

Definition ex_two_paths : fi :=
  FI (bs "r") None (bs "f") 0 []
     [FI (bs "s") (Some (bs "/a")) (bs "g") 0 [] []; FI (bs "s") (Some (bs "/b")) (bs "h") 0 [] []].

(* root calls A = keep "/k2" (sig s2) whose callee keeps "/k1" with signature s1a, then B (not kept, with arguments) whose
   callee keeps "/k1" with another signature s1b: solid s1a -> s2 is drawn /k1 -> /k2, dotted s2 -> s1b is drawn /k2 -> /k1 *)
Definition ex_path_cycle : fi :=
  FI (bs "r") None (bs "f") 0 []
     [FI (bs "s2") (Some (bs "/k2")) (bs "g") 1 [] [FI (bs "s1a") (Some (bs "/k1")) (bs "h") 1 [] []];
      FI (bs "u") None (bs "h") 1 [] [FI (bs "s1b") (Some (bs "/k1")) (bs "h") 1 [] []]].

Lemma path_cycle_refuted : exists x a b,
  In (a, b) (path_edges (structure x [])) /\ In (b, a) (path_edges (structure x [])) /\ a <> b.
Proof.
  exists ex_path_cycle, (bs "/k1"), (bs "/k2"). split; [|split].
  - vm_compute. left. reflexivity.
  - vm_compute. right. left. reflexivity.
  - vm_compute. intros H. discriminate H.
Qed.
End Refuted.

Section FiInd.
  Variable P : fi -> Prop.
  Hypothesis Hnode : forall s p n a l ch, Forall P ch -> P (FI s p n a l ch).
  Fixpoint fi_ind' (x : fi) : P x :=
    match x with
    | FI s p n a l ch =>
      Hnode s p n a l ch
        ((fix go (c : list fi) : Forall P c :=
            match c with
            | [] => Forall_nil P
            | y :: t => Forall_cons y (fi_ind' y) (go t)
            end) ch)
    end.
End FiInd.

Lemma fold_inv : forall A B (f : B -> A -> B) (J : B -> Prop) l,
  (forall st a, In a l -> J st -> J (f st a)) -> forall st, J st -> J (fold_left f l st).
Proof.
  intros A B f J l. induction l as [|a r IH]; intros Hstep st HJ; cbn [fold_left]; [exact HJ|].
  apply IH; [intros st0 a0 Hin; apply Hstep; right; exact Hin | apply Hstep; [left; reflexivity | exact HJ]].
Qed.

Lemma pair_eqb_spec : forall a b, reflect (a = b) (pair_eqb a b).
Proof.
  intros [a1 a2] [b1 b2]. unfold pair_eqb. cbn [fst snd].
  destruct (bytes_eqb_spec a1 b1), (bytes_eqb_spec a2 b2); constructor; congruence.
Qed.

Lemma alook_aset : forall A k k' (v : A) l, alook k (aset k' v l) = if bytes_eqb k k' then Some v else alook k l.
Proof.
  intros A k k' v l. induction l as [|[k0 v0] r IH]; cbn [aset alook]; [reflexivity|].
  destruct (bytes_eqb_spec k' k0) as [<- | N]; cbn [alook].
  - destruct (bytes_eqb k k'); reflexivity.
  - rewrite IH. destruct (bytes_eqb_spec k k0) as [-> |]; [|reflexivity]. destruct (bytes_eqb_spec k0 k'); congruence.
Qed.

Lemma alook_In : forall A k (v : A) l, alook k l = Some v -> In (k, v) l.
Proof.
  intros A k v l. induction l as [|[k0 v0] r IH]; cbn [alook]; intros H; [discriminate H|].
  destruct (bytes_eqb_spec k k0); [left; congruence | right; apply IH; exact H].
Qed.

Lemma dset_In_inv : forall k e k' e' d, In (k, e) (dset k' e' d) -> (k, e) = (k', e') \/ In (k, e) d.
Proof.
  intros k e k' e' d. induction d as [|[k0 e0] r IH]; cbn [dset]; intros H.
  - destruct H as [H | []]. left. congruence.
  - destruct (pair_eqb k' k0).
    + destruct H as [H | H]; [left; congruence | right; right; exact H].
    + destruct H as [H | H]; [right; left; exact H|]. destruct (IH H) as [H1 | H1]; [left; exact H1 | right; right; exact H1].
Qed.
Lemma dset_In : forall k e k' e' d, (k, e) = (k', e') \/ k <> k' /\ In (k, e) d -> In (k, e) (dset k' e' d).
Proof.
  intros k e k' e' d. induction d as [|[k0 e0] r IH]; cbn [dset].
  - intros [H | [_ []]]. left. symmetry. exact H.
  - destruct (pair_eqb_spec k' k0) as [<- | N].
    + intros [H | [Hne [H | H]]]; [left; symmetry; exact H | injection H as Hk _; destruct (Hne (eq_sym Hk)) | right; exact H].
    + intros [H | [Hne [H | H]]]; [right; apply IH; left; exact H | left; exact H | right; apply IH; right; split; assumption].
Qed.
Lemma dset_keys : forall k e d k', In k' (map fst (dset k e d)) <-> k = k' \/ In k' (map fst d).
Proof.
  intros k e d k'. induction d as [|[k0 e0] r IH]; cbn [dset]; [cbn [map In fst]; tauto|].
  destruct (pair_eqb_spec k k0) as [<- |]; cbn [map In fst]; [|rewrite IH]; clear; tauto.
Qed.
Lemma dlook_In : forall k e d, dlook k d = Some e -> In (k, e) d.
Proof.
  intros k e d. induction d as [|[k0 e0] r IH]; cbn [dlook]; intros H; [discriminate H|].
  destruct (pair_eqb_spec k k0); [left; congruence | right; apply IH; exact H].
Qed.
Lemma dlook_None_notin : forall k e d, dlook k d = None -> ~ In (k, e) d.
Proof.
  intros k e d. induction d as [|[k0 e0] r IH]; cbn [dlook]; intros H Hin; [destruct Hin|].
  destruct (pair_eqb_spec k k0) as [|N]; [discriminate H|].
  destruct Hin as [Hin | Hin]; [congruence | exact (IH H Hin)].
Qed.

(* The phases of traverse, named: the inner fixpoint over the children (word for word, so that fold recognises it), the
   implicit-edge loop, the two loops of a kept node *)
Fixpoint trav_list (l : list fi) (st : gstate) : list (list gnode * nat) * gstate :=
  match l with
  | [] => ([], st)
  | c :: r => let '(ns, st') := traverse c st in
              let '(rest, st'') := trav_list r st' in ((ns, fi_nargs c) :: rest, st'')
  end.

Definition sub_set_of (st1 : gstate) (sub_nodes : list gnode) : list bytes :=
  fold_left (fun acc n => set_union acc (ndeps_of st1 (snd n))) sub_nodes [].

Definition imp_step (sub_set : list bytes) (acc : list gnode * gstate) (ln : list gnode * nat) : list gnode * gstate :=
  let '(start_nodes, st) := acc in
  let '(l1, nargs) := ln in
  if Nat.eqb nargs 0 then (start_nodes ++ l1, st)
  else (l1, fold_left (fun st n1 => fold_left (fun st n2 => implicit_pair sub_set st n1 n2) l1 st) start_nodes st).

(* traverse starts the loop at the second child, with the nodes of the first as start nodes: that is what a first step
   from no start nodes does, whatever the number of arguments of the first child *)
Definition implicit_phase (sub_set : list bytes) (subs : list (list gnode * nat)) (st1 : gstate) : gstate :=
  snd (fold_left (imp_step sub_set) subs ([], st1)).

Definition direct_step (sig p : bytes) (st : gstate) (n : gnode) : gstate :=
  let k := (snd n, sig) in
  let deps := match dlook k (g_deps st) with
              | Some (GEdge _ _ EDirect) => g_deps st
              | _ => dset k (GEdge (fst n) p EDirect) (g_deps st)
              end in
  GState (g_nodes st) (g_refs st)
         (aset sig (set_union (ndeps_of st sig) (ndeps_of st (snd n))) (g_ndeps st)) deps.

Definition load_step (sig p : bytes) (st : gstate) (q : bytes) : gstate :=
  match alook q (g_refs st) with
  | None => st
  | Some sig2 =>
    let nodes := match alook sig2 (g_nodes st) with Some _ => g_nodes st | None => aset sig2 (q, sig2) (g_nodes st) end in
    let k := (sig2, sig) in
    let deps := match dlook k (g_deps st) with Some _ => g_deps st | None => dset k (GEdge q p EIndirect) (g_deps st) end in
    GState nodes (g_refs st) (g_ndeps st) deps
  end.

Definition node_start (sig p : bytes) (sub_set : list bytes) (sub_nodes : list gnode) (st2 : gstate) : gstate :=
  GState (aset sig (p, sig) (g_nodes st2)) (aset p sig (g_refs st2))
         (aset sig (set_union (set_union sub_set (map snd sub_nodes)) (ndeps_of st2 sig)) (g_ndeps st2)) (g_deps st2).

Definition node_phase (sig p : bytes) (sub_set : list bytes) (sub_nodes : list gnode) (loads : list bytes) (st2 : gstate)
  : gstate :=
  fold_left (load_step sig p) loads (fold_left (direct_step sig p) sub_nodes (node_start sig p sub_set sub_nodes st2)).

Lemma traverse_eq : forall sig path n a loads ch st,
  traverse (FI sig path n a loads ch) st =
  let subs := fst (trav_list ch st) in
  let st1 := snd (trav_list ch st) in
  let sub_nodes := dedupe_nodes (flat_map fst subs) in
  let sub_set := sub_set_of st1 sub_nodes in
  let st2 := implicit_phase sub_set subs st1 in
  match path with
  | None => (sub_nodes, st2)
  | Some p => ([(p, sig)], node_phase sig p sub_set sub_nodes loads st2)
  end.
Proof.
  intros sig path n a loads ch st. cbn [traverse]. fold (trav_list ch st).
  destruct (trav_list ch st) as [subs st1]. cbn [fst snd].
  unfold implicit_phase. destruct subs as [|[l0 n0] rest]; [destruct path; reflexivity|]. cbn [fold_left].
  replace (imp_step _ ([], st1) (l0, n0)) with (l0, st1) by (cbn; destruct (Nat.eqb n0 0); reflexivity).
  (* the loop body written out in traverse is imp_step *)
  set (F := fold_left _ rest (l0, st1)). change (fold_left (imp_step _) rest (l0, st1)) with F.
  destruct F. destruct path; reflexivity.
Qed.

(* the specification functions, with flat_map in place of the inner fixpoints *)
Lemma kept_nodes_eq : forall sig path n a l ch,
  kept_nodes (FI sig path n a l ch) = flat_map kept_nodes ch ++ match path with Some p => [(p, sig)] | None => [] end.
Proof. reflexivity. Qed.
Lemma heads_none_eq : forall sig n a l ch, heads (FI sig None n a l ch) = flat_map heads ch.
Proof. reflexivity. Qed.
Lemma insert_node_In : forall m n l, In m (insert_node n l) <-> n = m \/ In m l.
Proof.
  intros m n l. induction l as [|x r IH]; cbn [insert_node]; [reflexivity|].
  destruct (bytes_ltb (snd n) (snd x)); cbn [In]; [|rewrite IH]; clear; tauto.
Qed.
Lemma sort_fold_In : forall m l acc, In m (fold_left (fun acc n => insert_node n acc) l acc) <-> In m l \/ In m acc.
Proof.
  intros m l. induction l as [|x r IH]; intros acc; cbn [fold_left In]; [tauto|].
  rewrite IH, insert_node_In. clear. tauto.
Qed.
Lemma sort_nodes_In : forall m l, In m (sort_nodes l) <-> In m l.
Proof. intros m l. unfold sort_nodes. rewrite sort_fold_In. cbn [In]. tauto. Qed.

Lemma aset_Forall : forall A (P : bytes * A -> Prop) k v l, P (k, v) -> Forall P l -> Forall P (aset k v l).
Proof.
  intros A P k v l Hkv H. induction H as [|[k0 v0] r H0 H IH]; cbn [aset]; [auto|]. destruct (bytes_eqb k k0); auto.
Qed.
Lemma aset_keys : forall A k k' (v : A) l, In k (map fst (aset k' v l)) <-> k' = k \/ In k (map fst l).
Proof.
  intros A k k' v l. induction l as [|[k0 v0] r IH]; cbn [aset]; [cbn [map In fst]; tauto|].
  destruct (bytes_eqb_spec k' k0) as [<- |]; cbn [map In fst]; [|rewrite IH]; clear; tauto.
Qed.

Lemma dict_keys : forall k (l : list gnode) acc,
  In k (map fst (fold_left (fun acc n => aset (snd n) n acc) l acc)) <-> In k (map snd l) \/ In k (map fst acc).
Proof.
  intros k l. induction l as [|x r IH]; intros acc; cbn [fold_left map In]; [tauto|]. rewrite IH, aset_keys. clear. tauto.
Qed.

(* sorted(dict(...).values()) keeps the set of signatures *)
Lemma dedupe_sigs : forall s l, In s (map snd (dedupe_nodes l)) <-> In s (map snd l).
Proof.
  intros s l. unfold dedupe_nodes. set (d := fold_left (fun acc n => aset (snd n) n acc) l []).
  (* every node is filed under its signature *)
  assert (Hwf : Forall (fun kv => snd (snd kv) = fst kv) d).
  { apply fold_inv; [|constructor]. intros acc n _. apply aset_Forall. reflexivity. }
  assert (Hk : In s (map fst d) <-> In s (map snd l)) by (unfold d; rewrite dict_keys; cbn [map In]; tauto).
  assert (HH : map snd (map snd d) = map fst d) by (rewrite map_map; apply map_ext_in, Forall_forall, Hwf).
  rewrite <- Hk, <- HH, !in_map_iff. setoid_rewrite sort_nodes_In. reflexivity.
Qed.

(* the nodes a traversal returns carry the signatures of the head nodes *)
Definition sub_ok (c : fi) (sub : list gnode * nat) : Prop :=
  snd sub = fi_nargs c /\ forall s, In s (map snd (fst sub)) <-> In s (map snd (heads c)).

Lemma subs_sigs : forall l subs, Forall2 sub_ok l subs ->
  forall s, In s (map snd (flat_map fst subs)) <-> In s (map snd (flat_map heads l)).
Proof.
  intros l subs HF. induction HF as [|c sub r rest [_ Hc] HF IH]; intros s.
  - reflexivity.
  - cbn [flat_map]. rewrite !map_app, !in_app_iff, Hc, IH. reflexivity.
Qed.

Lemma trav_list_heads : forall l, Forall (fun c => forall st, sub_ok c (fst (traverse c st), fi_nargs c)) l ->
  forall st, Forall2 sub_ok l (fst (trav_list l st)).
Proof.
  intros l HF. induction HF as [|c r Hc HF IH]; intros st; [constructor|].
  cbn [trav_list]. specialize (Hc st). destruct (traverse c st) as [ns st']. specialize (IH st').
  destruct (trav_list r st'). constructor; assumption.
Qed.

Lemma heads_sigs : forall x st, sub_ok x (fst (traverse x st), fi_nargs x).
Proof.
  induction x as [sig path n a loads ch HF] using fi_ind'. intros st. split; [reflexivity|]. intros s.
  rewrite traverse_eq. destruct path as [p|]; cbn [fst]; [reflexivity|].
  rewrite dedupe_sigs, heads_none_eq. apply subs_sigs, trav_list_heads, HF.
Qed.

Definition deps_t := list ((bytes * bytes) * gedge).
Definition has_direct (k : bytes * bytes) (d : deps_t) : Prop := exists e, In (k, e) d /\ e_type e = EDirect.
Definition keys (st : gstate) : list (bytes * bytes) := map fst (g_deps st).

Lemma in_map_fst : forall A B (k : A) (l : list (A * B)), In k (map fst l) <-> exists e, In (k, e) l.
Proof.
  intros A B k l. rewrite in_map_iff. split.
  - intros [[k0 e] [E H]]. cbn [fst] in E. subst k0. exists e. exact H.
  - intros [e H]. exists (k, e). split; [reflexivity | exact H].
Qed.

Lemma in_keys : forall k st, In k (keys st) <-> exists e, In (k, e) (g_deps st).
Proof. intros k st. apply in_map_fst. Qed.

(* d' extends d by entries allowed by ok; the second clause says both that keys stay and that solid entries stay solid *)
Definition deps_ext (ok : bytes * bytes -> gedge -> Prop) (d d' : deps_t) : Prop :=
  (forall k e, In (k, e) d' -> In (k, e) d \/ ok k e) /\
  (forall k e, In (k, e) d -> exists e', In (k, e') d' /\ (e_type e = EDirect -> e_type e' = EDirect)).

Definition nodes_ext (N N' : list (bytes * gnode)) : Prop := forall s v, alook s N = Some v -> alook s N' = Some v.

Definition st_ext ok (st st' : gstate) : Prop :=
  g_refs st' = g_refs st /\ nodes_ext (g_nodes st) (g_nodes st') /\ deps_ext ok (g_deps st) (g_deps st').

Lemma deps_ext_refl : forall ok d, deps_ext ok d d.
Proof. intros ok d. split; [intros k e H; left; exact H | intros k e H; exists e; auto]. Qed.
Lemma deps_ext_trans : forall ok d1 d2 d3, deps_ext ok d1 d2 -> deps_ext ok d2 d3 -> deps_ext ok d1 d3.
Proof.
  intros ok d1 d2 d3 [A1 B1] [A2 B2]. split.
  - intros k e H. destruct (A2 k e H) as [H2 | H2]; [apply A1; exact H2 | right; exact H2].
  - intros k e H. destruct (B1 k e H) as [e2 [H2 T2]]. destruct (B2 k e2 H2) as [e3 [H3 T3]]. exists e3. auto.
Qed.
Lemma deps_ext_direct : forall ok d d' k, deps_ext ok d d' -> has_direct k d -> has_direct k d'.
Proof. intros ok d d' k [_ B] [e [H T]]. destruct (B k e H) as [e' [H' T']]. exists e'. auto. Qed.
(* an entry is only written under a fresh key, or as a solid entry: solid entries stay solid *)
Lemma deps_ext_dset : forall (ok : bytes * bytes -> gedge -> Prop) k e d,
  ok k e -> dlook k d = None \/ e_type e = EDirect -> deps_ext ok d (dset k e d).
Proof.
  intros ok k e d Hok Hd. split.
  - intros k0 e0 Hin. apply dset_In_inv in Hin. destruct Hin as [Heq | Hin]; [|left; exact Hin].
    inversion Heq; subst. right. exact Hok.
  - intros k0 e0 Hin. destruct (pair_eqb_spec k0 k) as [-> | N].
    + exists e. split; [apply dset_In; left; reflexivity|].
      destruct Hd as [Hd | Hd]; [destruct (dlook_None_notin _ _ _ Hd Hin) | intros _; exact Hd].
    + exists e0. split; [apply dset_In; right; split; assumption | auto].
Qed.

Lemma st_ext_refl : forall ok st, st_ext ok st st.
Proof. intros ok st. split; [reflexivity | split; [intros s v H; exact H | apply deps_ext_refl]]. Qed.
Lemma st_ext_trans : forall ok s1 s2 s3, st_ext ok s1 s2 -> st_ext ok s2 s3 -> st_ext ok s1 s3.
Proof.
  intros ok s1 s2 s3 [R1 [N1 D1]] [R2 [N2 D2]]. split; [congruence | split].
  - intros s v H. apply N2, N1. exact H.
  - eapply deps_ext_trans; eassumption.
Qed.
Lemma st_ext_same : forall ok st st',
  g_refs st' = g_refs st -> g_nodes st' = g_nodes st -> deps_ext ok (g_deps st) (g_deps st') -> st_ext ok st st'.
Proof.
  intros ok st st' R N D. split; [exact R | split; [|exact D]]. rewrite N. intros s v H. exact H.
Qed.

Lemma implicit_pair_spec : forall ss st n1 n2,
  g_refs (implicit_pair ss st n1 n2) = g_refs st /\ g_nodes (implicit_pair ss st n1 n2) = g_nodes st /\
  (g_deps (implicit_pair ss st n1 n2) = g_deps st \/
   snd n1 <> snd n2 /\ dlook (snd n1, snd n2) (g_deps st) = None /\ reaches (g_deps st) (snd n2) (snd n1) = false /\
   g_deps (implicit_pair ss st n1 n2) = dset (snd n1, snd n2) (GEdge (fst n1) (fst n2) EImplicit) (g_deps st)).
Proof.
  (* the result is named before implicit_pair is unfolded, so that the case analysis runs over one copy of its body *)
  intros ss st n1 n2. remember (implicit_pair ss st n1 n2) as r eqn:E. unfold implicit_pair in E. cbv zeta in E.
  destruct (bytes_eqb_spec (snd n1) (snd n2)) as [|Hne].
  - (* same node *) subst r. auto.
  - cbn [g_deps g_nodes g_refs g_ndeps] in E. destruct (dlook (snd n1, snd n2) (g_deps st)) eqn:D.
    + (* edge present *) subst r. auto.
    + (* [C]: the guard of the write, a conjunction that ends in negb (reaches (g_deps st) (snd n2) (snd n1)) *)
      match type of E with context [if ?c then _ else _] => destruct c eqn:C end; subst r; cbn [g_deps g_nodes g_refs].
      * (* edge written *)
        apply andb_true_iff in C. destruct C as [_ Hreach]. apply negb_true_iff in Hreach.
        split; [reflexivity|]. split; [reflexivity|]. right.
        split; [exact Hne|]. split; [reflexivity|]. split; [exact Hreach|reflexivity].
      * (* guard false *) auto.
Qed.

Lemma implicit_pair_ext : forall (ok : bytes * bytes -> gedge -> Prop) ss st n1 n2,
  (forall e, e_type e = EImplicit -> snd n1 <> snd n2 -> ok (snd n1, snd n2) e) ->
  st_ext ok st (implicit_pair ss st n1 n2).
Proof.
  intros ok ss st n1 n2 Hok. destruct (implicit_pair_spec ss st n1 n2) as [R [N [D | [Hne [Hnone [_ D]]]]]];
    apply st_ext_same; try assumption; rewrite D; [apply deps_ext_refl|].
  apply deps_ext_dset; [apply Hok; [reflexivity | exact Hne] | left; exact Hnone].
Qed.

(* the entries a kept node with signature sig adds: solid edges from the signatures hs of its head nodes, dashed edges
   from what its loads denote in all_refs rf *)
Definition ok_node (rf : list (bytes * bytes)) (sig : bytes) (hs loads : list bytes) (k : bytes * bytes) (e : gedge)
  : Prop :=
  snd k = sig /\ match e_type e with
                 | EDirect => In (fst k) hs
                 | EIndirect => In (e_from e) loads /\ alook (e_from e) rf = Some (fst k)
                 | EImplicit => False
                 end.

Lemma direct_step_ext : forall rf sig hs loads p st n, In (snd n) hs ->
  st_ext (ok_node rf sig hs loads) st (direct_step sig p st n) /\ has_direct (snd n, sig) (g_deps (direct_step sig p st n)).
Proof.
  intros rf sig hs loads p st n Hn.
  (* the case in which the solid edge is written *)
  assert (Hset : let d' := dset (snd n, sig) (GEdge (fst n) p EDirect) (g_deps st) in
                 deps_ext (ok_node rf sig hs loads) (g_deps st) d' /\ has_direct (snd n, sig) d').
  { split.
    - apply deps_ext_dset; [split; [reflexivity | exact Hn] | right; reflexivity].
    - eexists. split; [apply dset_In; left; reflexivity | reflexivity]. }
  (* nodes and references are passed on, so the claim is one about the dependencies *)
  assert (Hd : deps_ext (ok_node rf sig hs loads) (g_deps st) (g_deps (direct_step sig p st n)) /\
               has_direct (snd n, sig) (g_deps (direct_step sig p st n))).
  { unfold direct_step. cbv zeta. cbn [g_deps]. destruct (dlook (snd n, sig) (g_deps st)) as [[f t []]|] eqn:D.
    - (* solid entry: kept *)
      split; [apply deps_ext_refl|]. exists (GEdge f t EDirect). split; [apply dlook_In; exact D | reflexivity].
    - (* implicit entry: overwritten *) exact Hset.
    - (* dashed entry: overwritten *) exact Hset.
    - (* no entry *) exact Hset. }
  split; [apply st_ext_same; [reflexivity | reflexivity | apply Hd] | apply Hd].
Qed.

Lemma load_step_ext : forall rf sig hs loads p st q, g_refs st = rf -> In q loads ->
  st_ext (ok_node rf sig hs loads) st (load_step sig p st q) /\
  forall s2, alook q rf = Some s2 -> In (s2, sig) (keys (load_step sig p st q)).
Proof.
  intros rf sig hs loads p st q <- Hq. unfold load_step. destruct (alook q (g_refs st)) as [sig2|] eqn:R.
  - cbv zeta. split; [split; [reflexivity | split]; cbn [g_deps g_nodes g_refs]|].
    + destruct (alook sig2 (g_nodes st)) eqn:N; intros s v Hs; [exact Hs|].
      rewrite alook_aset. destruct (bytes_eqb_spec s sig2); [congruence | exact Hs].
    + destruct (dlook (sig2, sig) (g_deps st)) eqn:D; [apply deps_ext_refl|].
      apply deps_ext_dset; [split; [reflexivity | exact (conj Hq R)] | left; exact D].
    + intros s2 [= <-]. apply in_keys. cbn [g_deps].
      destruct (dlook (sig2, sig) (g_deps st)) eqn:D; eexists; [apply dlook_In; exact D | apply dset_In; left; reflexivity].
  - split; [apply st_ext_refl | discriminate].
Qed.

Lemma deps_ext_keys : forall ok st st', deps_ext ok (g_deps st) (g_deps st') -> incl (keys st) (keys st').
Proof. intros ok st st' [_ D] k Hk. apply in_keys in Hk. destruct Hk as [e He]. apply in_keys. destruct (D k e He) as [e' [He' _]]. exists e'. exact He'. Qed.

(* a loop whose steps extend the state, each establishing a fact that later extensions keep *)
Lemma fold_ext : forall A ok (f : gstate -> A -> gstate) (post : A -> gstate -> Prop) l st,
  (forall a s s', post a s -> st_ext ok s s' -> post a s') ->
  (forall s a, In a l -> st_ext ok st s -> st_ext ok s (f s a) /\ post a (f s a)) ->
  st_ext ok st (fold_left f l st) /\ forall a, In a l -> post a (fold_left f l st).
Proof.
  intros A ok f post l st Hkeep. revert st. induction l as [|a r IH]; intros st Hstep; cbn [fold_left].
  - split; [apply st_ext_refl | intros a []].
  - destruct (Hstep st a (or_introl eq_refl) (st_ext_refl ok st)) as [E1 H1].
    destruct (IH (f st a)) as [E2 H2].
    { intros s a' Hin E. apply Hstep; [right; exact Hin | eapply st_ext_trans; eassumption]. }
    split; [eapply st_ext_trans; eassumption|]. intros a' [<- | Hin]; [eapply Hkeep; eassumption | apply H2, Hin].
Qed.

(* what the node phase of a function kept at p does to the state st2 reached after its children *)
Definition node_done (sig p : bytes) (loads hs : list bytes) (st2 st5 : gstate) : Prop :=
  let rf := aset p sig (g_refs st2) in
  g_refs st5 = rf /\ nodes_ext (aset sig (p, sig) (g_nodes st2)) (g_nodes st5) /\
  deps_ext (ok_node rf sig hs loads) (g_deps st2) (g_deps st5) /\
  (forall h, In h hs -> has_direct (h, sig) (g_deps st5)) /\
  (forall q s2, In q loads -> alook q rf = Some s2 -> In (s2, sig) (keys st5)).

Lemma node_phase_done : forall sig p ss sn loads hs st2,
  (forall s, In s (map snd sn) <-> In s hs) -> node_done sig p loads hs st2 (node_phase sig p ss sn loads st2).
Proof.
  intros sig p ss sn loads hs st2 Hsigs. unfold node_phase. set (st3 := node_start sig p ss sn st2).
  set (ok := ok_node (g_refs st3) sig hs loads).
  destruct (fold_ext _ ok (direct_step sig p) (fun m st => has_direct (snd m, sig) (g_deps st)) sn st3) as [E4 H4].
  { intros m s s' H [_ [_ D]]. exact (deps_ext_direct _ _ _ _ D H). }
  { intros s m Hm _. apply direct_step_ext, Hsigs, in_map, Hm. }
  destruct (fold_ext _ ok (load_step sig p)
              (fun q st => forall s2, alook q (g_refs st3) = Some s2 -> In (s2, sig) (keys st))
              loads (fold_left (direct_step sig p) sn st3)) as [E5 H5].
  { intros q s s' H [_ [_ D]] s2 Hs. exact (deps_ext_keys _ _ _ D _ (H s2 Hs)). }
  { intros s q Hq [R _]. destruct E4 as [R4 _]. apply load_step_ext; [congruence | exact Hq]. }
  destruct (st_ext_trans _ _ _ _ E4 E5) as [R [N D]]. split; [exact R | split; [exact N | split; [exact D | split]]].
  - intros h Hh. apply Hsigs, in_map_iff in Hh. destruct Hh as [m [<- Hm]].
    destruct E5 as [_ [_ D5]]. apply (deps_ext_direct _ _ _ _ D5), H4, Hm.
  - intros q s2 Hq. exact (H5 q Hq s2).
Qed.

Lemma sibling_pairs_cons : forall c r s1 s2,
  In (s1, s2) (sibling_pairs (c :: r)) <->
  (In s1 (map snd (heads c)) /\ exists d, In d r /\ fi_nargs d <> 0 /\ In s2 (map snd (heads d))) \/
  In (s1, s2) (sibling_pairs r).
Proof.
  intros c r s1 s2. cbn [sibling_pairs]. rewrite in_app_iff, in_flat_map. apply or_iff_compat_r. split.
  - intros [d [Hd H]]. destruct (Nat.eqb_spec (fi_nargs d) 0) as [|Hn]; [destruct H|].
    apply in_flat_map in H. destruct H as [h1 [H1 H]]. apply in_map_iff in H. destruct H as [h2 [[= <- <-] H2]].
    split; [apply in_map; exact H1 | exists d; auto using in_map].
  - intros [H1 [d [Hd [Hn H2]]]]. exists d. split; [exact Hd|].
    destruct (Nat.eqb_spec (fi_nargs d) 0); [contradiction|].
    apply in_map_iff in H1. destruct H1 as [h1 [<- H1]]. apply in_map_iff in H2. destruct H2 as [h2 [<- H2]].
    apply in_flat_map. exists h1. split; [exact H1 | apply in_map_iff; exists h2; auto].
Qed.

(* the implicit-edge loop of a node takes st1 to st2 by steps implicit_pair on sibling pairs of its children *)
Definition imp_steps (ch : list fi) (st1 st2 : gstate) : Prop :=
  forall J : gstate -> Prop,
    (forall ss st n1 n2, In (snd n1, snd n2) (sibling_pairs ch) -> J st -> J (implicit_pair ss st n1 n2)) ->
    J st1 -> J st2.

Lemma imp_fold : forall ss ch r rest, Forall2 sub_ok r rest -> incl (sibling_pairs r) (sibling_pairs ch) ->
  forall start st,
    (forall s1 d s2, In s1 (map snd start) -> In d r -> fi_nargs d <> 0 -> In s2 (map snd (heads d)) ->
                     In (s1, s2) (sibling_pairs ch)) ->
    imp_steps ch st (snd (fold_left (imp_step ss) rest (start, st))).
Proof.
  intros ss ch r rest HF. induction HF as [|d [l1 na] r rest [Hna Hd] HF IH]; intros Hsub start st Hstart J HJ Hst; [exact Hst|].
  cbn [fold_left imp_step]. cbn [fst snd] in Hna, Hd.
  assert (Hsub' : incl (sibling_pairs r) (sibling_pairs ch)).
  { intros [s1 s2] H. apply Hsub, sibling_pairs_cons. right. exact H. }
  assert (Hl1 : forall s1 d' s2, In s1 (map snd l1) -> In d' r -> fi_nargs d' <> 0 -> In s2 (map snd (heads d')) ->
                                 In (s1, s2) (sibling_pairs ch)).
  { intros s1 d' s2 H1 Hd' Hn H2. apply Hsub, sibling_pairs_cons. left. split; [apply Hd; exact H1 | exists d'; auto]. }
  destruct (Nat.eqb_spec na 0) as [E | E].
  - (* no arguments: the nodes l1 of d join the start nodes, no edge is written *)
    assert (Hstart' : forall s1 d' s2, In s1 (map snd (start ++ l1)) -> In d' r -> fi_nargs d' <> 0 ->
                                       In s2 (map snd (heads d')) -> In (s1, s2) (sibling_pairs ch)).
    { intros s1 d' s2 H1. rewrite map_app, in_app_iff in H1.
      destruct H1 as [H1 | H1]; [intros Hd'; apply (Hstart s1 d' s2 H1); right; exact Hd' | apply Hl1; exact H1]. }
    exact (IH Hsub' (start ++ l1) st Hstart' J HJ Hst).
  - (* arguments: every start node is paired with every node of d, and l1 are the start nodes from here on; each
       pair written is a sibling pair by [Hstart] *)
    apply (IH Hsub' l1 _ Hl1 J HJ).
    apply fold_inv; [|exact Hst]. intros st' n1 Hn1 Hst'. apply fold_inv; [|exact Hst']. intros st'' n2 Hn2. apply HJ.
    apply (Hstart (snd n1) d (snd n2)); [apply in_map; exact Hn1 | left; reflexivity | congruence | apply Hd, in_map; exact Hn2].
Qed.

Lemma trav_ind : forall (Q : fi -> gstate -> gstate -> Prop) (QL : list fi -> gstate -> gstate -> Prop),
  (forall st, QL [] st st) ->
  (forall c r st st1 st2, Q c st st1 -> QL r st1 st2 -> QL (c :: r) st st2) ->
  (forall sig path n a loads ch st st1 st2 st3, QL ch st st1 -> imp_steps ch st1 st2 ->
     match path with
     | Some p => node_done sig p loads (map snd (heads_of_children ch)) st2 st3
     | None => st3 = st2
     end -> Q (FI sig path n a loads ch) st st3) ->
  forall x st, Q x st (snd (traverse x st)).
Proof.
  intros Q QL Hnil Hcons Hnode x. induction x as [sig path n a loads ch HF] using fi_ind'. intros st.
  assert (HQL : QL ch st (snd (trav_list ch st))).
  { revert st. induction HF as [|c r Hc HF IH]; intros st; [apply Hnil|].
    cbn [trav_list]. specialize (Hc st). destruct (traverse c st) as [ns st']. specialize (IH st').
    destruct (trav_list r st'). exact (Hcons _ _ _ _ _ Hc IH). }
  assert (Hsubs : Forall2 sub_ok ch (fst (trav_list ch st))).
  { apply trav_list_heads, Forall_forall. intros c _. apply heads_sigs. }
  rewrite traverse_eq. destruct (trav_list ch st) as [subs st1]. cbn [fst snd] in *.
  set (sn := dedupe_nodes (flat_map fst subs)).
  apply (Hnode sig path n a loads ch st st1 (implicit_phase (sub_set_of st1 sn) subs st1));
    [exact HQL | apply (imp_fold _ ch ch subs Hsubs (incl_refl _)); intros s1 d s2 []|].
  destruct path as [p|]; cbn [snd]; [|reflexivity]. apply node_phase_done.
  intros s. unfold sn. rewrite dedupe_sigs. apply subs_sigs. exact Hsubs.
Qed.

Section Graph.
Variable R0 : list (bytes * bytes).      (* the references fetched before the traversal *)

(* what a path may denote: a fetched reference, or one of the kept occurrences K *)
Definition denotes (K : list gnode) (q s : bytes) : Prop := In (q, s) R0 \/ In (q, s) K.

(* the entries allowed, by type: solid keys S, dotted keys D, dashed (path, reader) pairs A *)
Definition new_ok (S D A : list (bytes * bytes)) (K : list gnode) (k : bytes * bytes) (e : gedge) : Prop :=
  match e_type e with
  | EDirect => In k S
  | EImplicit => In k D /\ fst k <> snd k
  | EIndirect => In (e_from e, snd k) A /\ denotes K (e_from e) (fst k)
  end.

Lemma new_ok_incl : forall S D A K S' D' A' K' k e,
  incl S S' -> incl D D' -> incl A A' -> incl K K' -> new_ok S D A K k e -> new_ok S' D' A' K' k e.
Proof. intros S D A K S' D' A' K' k e HS HD HA HK. unfold new_ok, denotes. destruct (e_type e); intuition. Qed.

Definition knode (K : list gnode) (st : gstate) (s : bytes) : Prop :=
  exists v, alook s (g_nodes st) = Some v /\ In v K /\ snd v = s.

(* kept once the node phase of an occurrence has set it: the node of a loaded reference is inserted only when its
   signature is not yet a node, and never replaces the node of a kept occurrence *)
Definition nodes_inv (K : list gnode) (st : gstate) : Prop := forall s, In s (map snd K) -> knode K st s.

Lemma nodes_inv_node : forall K sig p loads hs st2 st5,
  node_done sig p loads hs st2 st5 -> nodes_inv K st2 -> nodes_inv (K ++ [(p, sig)]) st5.
Proof.
  intros K sig p loads hs st2 st5 [_ [N _]] H s Hs. destruct (bytes_eqb_spec s sig) as [-> | Hne].
  - exists (p, sig). rewrite in_app_iff. split; [apply N; rewrite alook_aset, bytes_eqb_refl|]; cbn; auto.
  - rewrite map_app, in_app_iff in Hs. destruct Hs as [Hs | [<- | []]]; [|contradiction].
    destruct (H s Hs) as [v [Hv [Hin E]]]. exists v. rewrite in_app_iff. split; [|auto].
    apply N. rewrite alook_aset. destruct (bytes_eqb_spec s sig); [contradiction | exact Hv].
Qed.

(* what is known of the dictionaries once a forest with solid keys S, dotted keys D, dashed pairs A and kept occurrences K
   has been traversed *)
Definition graph_inv (S D A : list (bytes * bytes)) (K : list gnode) (st : gstate) : Prop :=
  (forall q s, alook q (g_refs st) = Some s -> denotes K q s) /\
  (forall k e, In (k, e) (g_deps st) -> new_ok S D A K k e) /\
  (forall k, In k S -> has_direct k (g_deps st)) /\ nodes_inv K st.

Lemma graph_inv_imp : forall ch S D A K st1 st2,
  imp_steps ch st1 st2 -> graph_inv S D A K st1 -> graph_inv S (D ++ sibling_pairs ch) A K st2.
Proof.
  intros ch S D A K st1 st2 Himp [Hr [He [Hd Hn]]].
  assert (E : st_ext (new_ok S (D ++ sibling_pairs ch) A K) st1 st2).
  { apply Himp; [|apply st_ext_refl]. intros ss st n1 n2 Hsib H. eapply st_ext_trans; [exact H|].
    apply implicit_pair_ext. intros e T Hne. unfold new_ok. rewrite T. split; [apply in_app_iff; right; exact Hsib | exact Hne]. }
  destruct E as [R [N E]]. split; [rewrite R; exact Hr | split; [|split]].
  - intros k e H. destruct (proj1 E k e H) as [H0 | H0]; [|exact H0].
    apply He in H0. revert H0. apply new_ok_incl; auto using incl_refl, incl_appl.
  - intros k Hk. exact (deps_ext_direct _ _ _ _ E (Hd k Hk)).
  - intros s Hs. destruct (Hn s Hs) as [v [Hv Hin]]. exists v. split; [apply N, Hv | exact Hin].
Qed.

Lemma graph_inv_node : forall sig p loads (hs : list gnode) S D A K st2 st5,
  node_done sig p loads (map snd hs) st2 st5 -> graph_inv S D A K st2 ->
  graph_inv (S ++ map (fun h => (snd h, sig)) hs) D (A ++ map (fun q => (q, sig)) loads) (K ++ [(p, sig)]) st5.
Proof.
  intros sig p loads hs S D A K st2 st5 Hnode [Hr [He [Hd Hn]]]. pose proof Hnode as [R [_ [E [Hd' _]]]].
  assert (Hr5 : forall q s, alook q (g_refs st5) = Some s -> denotes (K ++ [(p, sig)]) q s).
  { intros q s. rewrite R, alook_aset. unfold denotes. rewrite in_app_iff. destruct (bytes_eqb_spec q p) as [-> |].
    - intros [= <-]. right. right. left. reflexivity.
    - intros H. destruct (Hr q s H); auto. }
  split; [exact Hr5 | split; [|split; [|exact (nodes_inv_node _ _ _ _ _ _ _ Hnode Hn)]]].
  - intros k e H. destruct (proj1 E k e H) as [H0 | [Hk H0]].
    + apply He in H0. revert H0. apply new_ok_incl; auto using incl_refl, incl_appl.
    + destruct k as [k1 k2]. cbn [fst snd] in Hk, H0. subst k2. unfold new_ok.
      destruct (e_type e); [|destruct H0|]; rewrite in_app_iff.
      * right. apply in_map_iff in H0. destruct H0 as [h [<- Hh]]. exact (in_map (fun h => (snd h, sig)) hs h Hh).
      * destruct H0 as [Hq Hs]. split; [right; exact (in_map (fun q => (q, sig)) loads _ Hq) | apply Hr5; rewrite R; exact Hs].
  - intros k Hk. apply in_app_iff in Hk. destruct Hk as [Hk | Hk]; [exact (deps_ext_direct _ _ _ _ E (Hd k Hk))|].
    apply in_map_iff in Hk. destruct Hk as [h [<- Hh]]. apply Hd', in_map, Hh.
Qed.

Lemma traverse_graph : forall x st S D A K, graph_inv S D A K st ->
  graph_inv (S ++ solid_spec x) (D ++ dotted_allowed x) (A ++ dashed_spec x) (K ++ kept_nodes x) (snd (traverse x st)).
Proof.
  apply (trav_ind
    (fun x st st' => forall S D A K, graph_inv S D A K st ->
       graph_inv (S ++ solid_spec x) (D ++ dotted_allowed x) (A ++ dashed_spec x) (K ++ kept_nodes x) st')
    (fun l st st' => forall S D A K, graph_inv S D A K st ->
       graph_inv (S ++ flat_map solid_spec l) (D ++ flat_map dotted_allowed l) (A ++ flat_map dashed_spec l)
                 (K ++ flat_map kept_nodes l) st')).
  - intros st S D A K H. rewrite !app_nil_r. exact H.
  - intros c r st st1 st2 Hc Hr S D A K H. cbn [flat_map]. rewrite !app_assoc. apply Hr, Hc, H.
  - intros sig path n a loads ch st st1 st2 st3 HQL Himp Hnode S D A K H.
    cbn [solid_spec dotted_allowed dashed_spec]. rewrite kept_nodes_eq, !app_assoc.
    pose proof (graph_inv_imp _ _ _ _ _ _ _ Himp (HQL _ _ _ _ H)) as H2.
    destruct path as [p|]; [exact (graph_inv_node _ _ _ _ _ _ _ _ _ _ Hnode H2) | subst st3; rewrite !app_nil_r; exact H2].
Qed.
End Graph.

Lemma edges_of_type_In : forall t st k e,
  In (k, e) (edges_of_type t st) <-> In (k, e) (g_deps st) /\ e_type e = t.
Proof.
  intros t st k e. unfold edges_of_type. rewrite filter_In. cbn [snd].
  split; intros [H T]; (split; [exact H|]); destruct (e_type e), t; (reflexivity || discriminate T).
Qed.

Lemma keys_of_type_In : forall t st k,
  In k (keys_of_type t st) <-> exists e, In (k, e) (g_deps st) /\ e_type e = t.
Proof.
  intros t st k. change (keys_of_type t st) with (map fst (edges_of_type t st)).
  rewrite in_map_fst. setoid_rewrite edges_of_type_In. reflexivity.
Qed.

Lemma final_graph : forall x R,
  graph_inv R (solid_spec x) (dotted_allowed x) (dashed_spec x) (kept_nodes x) (final_state x R).
Proof.
  intros x R. apply (traverse_graph R x (GState [] R [] []) [] [] [] []).
  split; [intros q s H; left; apply alook_In, H | split; [intros k e [] | split; [intros k [] | intros s []]]].
Qed.

Lemma final_typed : forall x R k e, In (k, e) (g_deps (final_state x R)) ->
  match e_type e with
  | EDirect => In k (solid_spec x)
  | EImplicit => In k (dotted_allowed x)
  | EIndirect => In (e_from e, snd k) (dashed_spec x)
  end.
Proof.
  intros x R k e Hin. destruct (final_graph x R) as [_ [Hnew _]].
  specialize (Hnew k e Hin). unfold new_ok in Hnew. destruct (e_type e); tauto.
Qed.

Lemma no_self_loop : forall x R k e,
  no_self_sig x R -> In (k, e) (g_deps (final_state x R)) -> fst k <> snd k.
Proof.
  intros x R k e [Hsolid Hload] Hin. destruct (final_graph x R) as [_ [Hnew _]].
  specialize (Hnew k e Hin). unfold new_ok in Hnew. destruct (e_type e).
  - apply Hsolid, Hnew.
  - apply Hnew.
  - destruct Hnew as [Hk HP]. exact (Hload _ _ _ Hk HP).
Qed.

(* only the first half of sig_determines_path is needed *)
Lemma kept_path_is_node : forall x R,
  (forall n m, In n (kept_nodes x) -> In m (kept_nodes x) -> snd n = snd m -> fst n = fst m) ->
  forall n, In n (kept_nodes x) -> In n (fst (structure x R)).
Proof.
  intros x R Huniq n Hin.
  assert (Hfst : fst (structure x R) = map snd (g_nodes (final_state x R))).
  { unfold structure, final_state. destruct (traverse x (GState [] R [] [])) as [ns st]. reflexivity. }
  rewrite Hfst. destruct (final_graph x R) as [_ [_ [_ Hn]]].
  destruct (Hn (snd n) (in_map snd _ _ Hin)) as [v [Hv [Hvin Hs]]].
  assert (E : v = n) by (destruct v, n; cbn [snd] in Hs; subst; f_equal; exact (Huniq _ _ Hvin Hin eq_refl)).
  subst v. apply in_map_iff. exists (snd n, n). split; [reflexivity | apply alook_In; exact Hv].
Qed.
