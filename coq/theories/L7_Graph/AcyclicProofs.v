(* The graph computed by L7_Graph/Structure.v has no cycle (fix F29: a call-order edge is added only when its target does
   not already reach its source).  Edges are the KEYS of g_deps: pairs (from-signature, to-signature).
   [reaches] (saturation with |E| + 1 passes) decides reachability on the current key set; adding edges into a node from
   sources that it does not reach keeps the graph acyclic; the invariant [Inv] along the traversal: the key set is acyclic,
   every source of an edge that is the signature of a kept node has completed, and everything a completed kept node
   contributes is already recorded - so a shared node completing again adds no key, a node completing for the first time
   is not yet the source of any edge, and the call-order edges are guarded by reaches.  Used by Properties/C18b.v. *)
From Coq Require Import List Ascii Bool Arith Lia.
From DDS Require Import Base.Bytes Base.BytesFacts L3_Sig.Sig L7_Graph.Structure L7_Graph.GraphSpec L7_Graph.GraphProofs.
Import ListNotations.

Inductive path (E : list (bytes * bytes)) : bytes -> bytes -> Prop :=
| path_one a b : In (a, b) E -> path E a b
| path_step a b c : In (a, b) E -> path E b c -> path E a c.
Definition acyclic (E : list (bytes * bytes)) : Prop := forall k, ~ path E k k.

Definition reach (E : list (bytes * bytes)) (a b : bytes) : Prop := a = b \/ path E a b.

Lemma path_trans : forall E a b c, path E a b -> path E b c -> path E a c.
Proof.
  intros E a b c H. revert c. induction H as [a b H | a b c H H' IH]; intros d Hd.
  - eapply path_step; eassumption.
  - eapply path_step; [exact H | apply IH; exact Hd].
Qed.

Lemma path_incl : forall E E' a b, incl E E' -> path E a b -> path E' a b.
Proof.
  intros E E' a b Hi H. induction H as [a b H | a b c H H' IH].
  - apply path_one. apply Hi. exact H.
  - eapply path_step; [apply Hi; exact H | exact IH].
Qed.

Lemma path_src : forall E a b, path E a b -> exists c, In (a, c) E.
Proof. intros E a b H. destruct H as [a b H | a b c H _]; eexists; exact H. Qed.

Lemma reach_trans : forall E a b c, reach E a b -> reach E b c -> reach E a c.
Proof.
  intros E a b c [Hab | Hab] [Hbc | Hbc].
  - left. congruence.
  - subst b. right. exact Hbc.
  - subst c. right. exact Hab.
  - right. eapply path_trans; eassumption.
Qed.

Lemma acyclic_nil : acyclic [].
Proof. intros k H. apply path_src in H. destruct H as [c []]. Qed.

Definition step (acc : list bytes) (e : bytes * bytes) : list bytes :=
  if memb (fst e) acc then set_add (snd e) acc else acc.

Lemma closure_S : forall f E s, closure (S f) E s = closure f E (fold_left step E s).
Proof. reflexivity. Qed.

Lemma step_cases : forall acc e,
  step acc e = acc /\ (In (fst e) acc -> In (snd e) acc) \/
  step acc e = acc ++ [snd e] /\ In (fst e) acc /\ ~ In (snd e) acc.
Proof.
  intros acc e. unfold step, set_add. destruct (memb (fst e) acc) eqn:Mu; [destruct (memb (snd e) acc) eqn:Mv|].
  - left. split; [reflexivity|]. intros _. apply existsb_bytes_eqb. exact Mv.
  - right. split; [reflexivity|]. split; [apply existsb_bytes_eqb; exact Mu|].
    intros H. apply existsb_bytes_eqb in H. unfold memb in Mv. congruence.
  - left. split; [reflexivity|]. intros H. apply existsb_bytes_eqb in H. unfold memb in Mu. congruence.
Qed.

(* what a pass over edges of E keeps *)
Definition collected (E : list (bytes * bytes)) (a : bytes) (acc : list bytes) : Prop :=
  In a acc /\ (forall x, In x acc -> reach E a x) /\ NoDup acc /\ incl acc (a :: map snd E).

Lemma step_collected : forall E a acc e, In e E -> collected E a acc -> collected E a (step acc e).
Proof.
  intros E a acc [u v] He [Ha [Hr [Hn Hi]]]. destruct (step_cases acc (u, v)) as [[-> _] | [-> [Hu Hv]]]; [repeat split; assumption|].
  cbn [fst snd] in *. split; [apply in_app_iff; left; exact Ha | split; [|split]].
  - intros x Hx. apply in_app_iff in Hx. destruct Hx as [Hx | [<- | []]]; [apply Hr; exact Hx|].
    eapply reach_trans; [apply Hr; exact Hu | right; apply path_one; exact He].
  - apply (NoDup_Add (Add_app v acc [])). rewrite app_nil_r. split; assumption.
  - intros x Hx. apply in_app_iff in Hx. destruct Hx as [Hx | [<- | []]]; [apply Hi; exact Hx|].
    right. apply (in_map snd E (u, v) He).
Qed.

Lemma pass_collected : forall E a acc, collected E a acc -> collected E a (fold_left step E acc).
Proof. intros E a acc H. apply fold_inv; [|exact H]. intros acc' e He. apply step_collected. exact He. Qed.

Lemma closure_collected : forall E a f acc, collected E a acc -> collected E a (closure f E acc).
Proof.
  intros E a f. induction f as [|f IH]; intros acc H; [exact H|]. rewrite closure_S. apply IH, pass_collected, H.
Qed.

Definition closed (E : list (bytes * bytes)) (S : list bytes) : Prop := forall a b, In (a, b) E -> In a S -> In b S.

Lemma closed_path : forall E S a b, closed E S -> In a S -> path E a b -> In b S.
Proof.
  intros E S a b Hc Ha Hp. induction Hp as [a b H | a b c H _ IH].
  - eapply Hc; eassumption.
  - apply IH. eapply Hc; eassumption.
Qed.

Lemma fold_progress : forall L acc, exists l,
  fold_left step L acc = acc ++ l /\ (l = [] -> forall e, In e L -> In (fst e) acc -> In (snd e) acc).
Proof.
  induction L as [|e L IH]; intros acc; cbn [fold_left]; [exists []; split; [symmetry; apply app_nil_r | intros _ e []]|].
  destruct (step_cases acc e) as [[-> Hc] | [-> _]].
  - destruct (IH acc) as [l [El Hl]]. exists l. split; [exact El|].
    intros Hn e' [<- | He']; [exact Hc | exact (Hl Hn e' He')].
  - destruct (IH (acc ++ [snd e])) as [l [El _]]. exists (snd e :: l). rewrite El, <- app_assoc. split; [reflexivity | discriminate].
Qed.

(* a duplicate-free list within a :: targets cannot grow |E| + 1 times *)
Lemma closure_closed : forall E a f acc,
  collected E a acc -> S (length E) < f + length acc -> closed E (closure f E acc).
Proof.
  intros E a f. induction f as [|f IH]; intros acc H Hlt.
  - destruct H as [_ [_ [Hn Hi]]]. apply (NoDup_incl_length Hn) in Hi. cbn [length] in Hi. rewrite map_length in Hi. cbn in Hlt. lia.
  - rewrite closure_S. destruct (fold_progress E acc) as [[|x l] [Heq Hcl]].
    + rewrite app_nil_r in Heq. rewrite Heq. specialize (Hcl eq_refl). clear - Hcl Heq.
      induction f as [|f IHf]; [intros u v Huv; exact (Hcl (u, v) Huv) | rewrite closure_S, Heq; exact IHf].
    + apply IH; [apply pass_collected, H|]. rewrite Heq, app_length. cbn [length]. lia.
Qed.

Theorem reaches_spec : forall deps a b, reaches deps a b = true <-> a = b \/ path (map fst deps) a b.
Proof.
  intros deps a b. unfold reaches, memb. rewrite existsb_bytes_eqb, <- (map_length fst deps).
  set (E := map fst deps).
  assert (H0 : collected E a [a]).
  { split; [left; reflexivity | split; [intros x [<- | []]; left; reflexivity|]].
    split; [constructor; [intros [] | constructor] | intros x [<- | []]; left; reflexivity]. }
  destruct (closure_collected E a (S (length E)) [a] H0) as [Ha [Hr _]]. split; [apply Hr|].
  assert (Hc : closed E (closure (S (length E)) E [a])) by (apply (closure_closed E a); [exact H0 | cbn [length]; lia]).
  intros [<- | Hp]; [exact Ha | exact (closed_path E _ a b Hc Ha Hp)].
Qed.

(* An E'-path that is not an E-path crosses a new edge u -> s: up to the first one and from the last one on it is in E. *)
Lemma path_add_inv : forall E E' s (N : bytes -> Prop),
  (forall e, In e E' -> In e E \/ snd e = s /\ N (fst e)) ->
  forall x y, path E' x y -> path E x y \/ exists u, N u /\ reach E x u /\ reach E s y.
Proof.
  intros E E' s N HE x y H. induction H as [x y H | x z y H _ IH]; destruct (HE _ H) as [H1 | [<- Hn]]; cbn [fst snd] in *.
  - left. apply path_one. exact H1.
  - right. exists x. split; [exact Hn | split; left; reflexivity].
  - destruct IH as [IH | [u [Hu [IH1 IH2]]]]; [left; eapply path_step; eassumption | right].
    exists u. split; [exact Hu | split; [|exact IH2]]. eapply reach_trans; [|exact IH1]. right. apply path_one. exact H1.
  - right. exists x. split; [exact Hn | split; [left; reflexivity|]].
    destruct IH as [IH | [_ [_ [_ IH2]]]]; [right; exact IH | exact IH2].
Qed.

Lemma add_in_edges_acyclic : forall E E' s,
  acyclic E -> (forall e, In e E' -> In e E \/ snd e = s /\ ~ reach E s (fst e)) -> acyclic E'.
Proof.
  intros E E' s Hac HE k Hk.
  destruct (path_add_inv E E' s (fun u => ~ reach E s u) HE k k Hk) as [H | [u [Hu [H1 H2]]]].
  - exact (Hac k H).
  - exact (Hu (reach_trans E s k u H2 H1)).
Qed.

Theorem add_edge_acyclic : forall E E' a b,
  acyclic E -> ~ (b = a \/ path E b a) ->
  (forall e, In e E' -> In e E \/ e = (a, b)) -> acyclic E'.
Proof.
  intros E E' a b Hac Hnr HE. apply (add_in_edges_acyclic E E' b Hac). intros e He.
  destruct (HE e He) as [H | ->]; [left; exact H | right; split; [reflexivity | exact Hnr]].
Qed.

(* the kept sub-trees of a tree, in completion order (post-order, every occurrence) *)
Fixpoint ks (x : fi) : list fi :=
  match x with
  | FI _ pth _ _ _ ch =>
    (fix go (l : list fi) : list fi := match l with [] => [] | c :: r => ks c ++ go r end) ch
    ++ match pth with Some _ => [x] | None => [] end
  end.

Lemma ks_eq : forall s p f a l ch,
  ks (FI s p f a l ch) = flat_map ks ch ++ match p with Some _ => [FI s p f a l ch] | None => [] end.
Proof. reflexivity. Qed.

Definition fi_node (n : fi) : gnode := (match fi_path n with Some p => p | None => [] end, fi_sig n).
Lemma kept_nodes_ks : forall x, kept_nodes x = map fi_node (ks x).
Proof.
  induction x as [s p f a l ch HF] using fi_ind'. rewrite kept_nodes_eq, ks_eq, map_app. f_equal.
  - induction HF as [|c r Hc HF IH]; [reflexivity|]. cbn [flat_map]. rewrite map_app, Hc, IH. reflexivity.
  - destruct p; reflexivity.
Qed.

Lemma ks_kept : forall x n, In n (ks x) -> exists p, fi_path n = Some p.
Proof.
  induction x as [s p f a l ch HF] using fi_ind'. intros n Hn. rewrite ks_eq in Hn. apply in_app_iff in Hn.
  destruct Hn as [Hn | Hn].
  - apply in_flat_map in Hn. destruct Hn as [c [Hc Hn]]. rewrite Forall_forall in HF. exact (HF c Hc n Hn).
  - destruct p as [p|]; [|destruct Hn]. destruct Hn as [Hn | []]. subst n. exists p. reflexivity.
Qed.

Lemma heads_ks_list : forall l, Forall (fun c => forall h, In h (map snd (heads c)) -> In h (map fi_sig (ks c))) l ->
  forall h, In h (map snd (heads_of_children l)) -> In h (map fi_sig (flat_map ks l)).
Proof.
  intros l HF. induction HF as [|c r Hc HF IH]; intros h; [exact (fun H => H)|]. unfold heads_of_children. cbn [flat_map].
  rewrite !map_app, !in_app_iff. intros [H | H]; [left; apply Hc, H | right; apply IH, H].
Qed.

Lemma heads_ks : forall x h, In h (map snd (heads x)) -> In h (map fi_sig (ks x)).
Proof.
  induction x as [s p f a l ch HF] using fi_ind'. intros h Hh. rewrite ks_eq, map_app, in_app_iff.
  destruct p as [p|]; [right; exact Hh | left; exact (heads_ks_list ch HF h Hh)].
Qed.

Lemma sibling_pairs_src : forall l a b, In (a, b) (sibling_pairs l) -> In a (map snd (heads_of_children l)).
Proof.
  induction l as [|c r IH]; intros a b H; [destruct H|]. apply sibling_pairs_cons in H.
  unfold heads_of_children. cbn [flat_map]. rewrite map_app, in_app_iff.
  destruct H as [[H _] | H]; [left; exact H | right; exact (IH a b H)].
Qed.

(* (w1) signatures identify kept sub-trees (ideal hash): two kept sub-trees with the same signature have the same path,
        the same loads and the same children (nothing is asked of the function name or of the number of arguments, nor
        of sub-trees that are not kept) *)
Definition wf_sig (K : list fi) : Prop :=
  forall n m, In n K -> In m K -> fi_sig n = fi_sig m ->
    fi_path n = fi_path m /\ fi_loads n = fi_loads m /\ fi_children n = fi_children m.
(* (w2) a path is kept with one signature in an evaluation *)
Definition wf_path (K : list fi) : Prop :=
  forall n m, In n K -> In m K -> fi_path n = fi_path m -> fi_sig n = fi_sig m.
(* (w3) no read before produce: a path loaded by a kept function has been kept by a function that completed EARLIER in
        traversal order (K is in completion order), or is not kept at all in this evaluation - then, if it is a fetched
        reference, its signature is not the signature of a kept function of this evaluation *)
Definition wf_loads (K : list fi) (R : list (bytes * bytes)) : Prop :=
  forall pre n post, K = pre ++ n :: post -> forall q, In q (fi_loads n) ->
    In (Some q) (map fi_path pre) \/
    (~ In (Some q) (map fi_path K) /\ forall s, In (q, s) R -> ~ In s (map fi_sig K)).

Definition wf_graph_input (x : fi) (R : list (bytes * bytes)) : Prop :=
  wf_sig (ks x) /\ wf_path (ks x) /\ wf_loads (ks x) R.

Section Acyclic.
Variable K : list fi.
Variable R : list (bytes * bytes).
Hypothesis Hw1 : wf_sig K.
Hypothesis Hw2 : wf_path K.
Hypothesis Hw3 : wf_loads K R.

(* the keys a completed kept node n contributes when all_refs is rf: from the head nodes of its children, and from what
   its loads denote *)
Definition contrib (n : fi) (rf : list (bytes * bytes)) (k : bytes * bytes) : Prop :=
  snd k = fi_sig n /\
  (In (fst k) (map snd (heads_of_children (fi_children n))) \/ exists q, In q (fi_loads n) /\ alook q rf = Some (fst k)).

(* pre: the kept sub-trees completed so far; E: the keys of deps; rf: all_refs *)
Definition Inv (pre : list fi) (E : list (bytes * bytes)) (rf : list (bytes * bytes)) : Prop :=
  acyclic E /\
  (* a kept signature that is the source of an edge has completed *)
  (forall a b, In (a, b) E -> In a (map fi_sig K) -> In a (map fi_sig pre)) /\
  (* what a completed node contributes is recorded *)
  (forall n k, In n pre -> contrib n rf k -> In k E) /\
  (* all_refs: completed paths have their signature, paths that are never kept are as fetched *)
  (forall n p, In n pre -> fi_path n = Some p -> alook p rf = Some (fi_sig n)) /\
  (forall q, ~ In (Some q) (map fi_path K) -> alook q rf = alook q R).

Definition InvS (pre : list fi) (st : gstate) : Prop := Inv pre (keys st) (g_refs st).

(* a call-order edge leaves a completed node, and reaches has refused it if its target reaches its source *)
Lemma implicit_pair_inv : forall pre ss st n1 n2,
  In (snd n1) (map fi_sig pre) -> InvS pre st -> InvS pre (implicit_pair ss st n1 n2).
Proof.
  intros pre ss st n1 n2 Hn1 H. unfold InvS, keys.
  destruct (implicit_pair_spec ss st n1 n2) as [-> [_ [-> | [_ [_ [Hr ->]]]]]]; [exact H|].
  destruct H as [I1 [I2 [I3 I4]]]. unfold keys in *.
  pose proof (dset_keys (snd n1, snd n2) (GEdge (fst n1) (fst n2) EImplicit) (g_deps st)) as HE.
  split; [|split; [|split; [|exact I4]]].
  - apply (add_edge_acyclic _ _ (snd n1) (snd n2) I1).
    + rewrite <- reaches_spec. congruence.
    + intros e He. apply HE in He. destruct He as [<- | He]; auto.
  - intros a b H HK. apply HE in H. destruct H as [H | H]; [congruence | eapply I2; eassumption].
  - intros n k Hn Hc. apply HE. right. eapply I3; eassumption.
Qed.

Lemma Inv_complete : forall pre post s p f a loads ch E rf E',
  let x := FI s (Some p) f a loads ch in
  K = pre ++ x :: post ->
  (forall h, In h (map snd (heads_of_children ch)) -> In h (map fi_sig pre)) ->
  Inv pre E rf -> (forall k, In k E' <-> In k E \/ contrib x (aset p s rf) k) ->
  Inv (pre ++ [x]) E' (aset p s rf).
Proof.
  intros pre post s p f a loads ch E rf E' x HK Hheads [I1 [I2 [I3 [I4a I4b]]]] HE.
  assert (HxK : In x K) by (rewrite HK; apply in_elt).
  assert (HpreK : incl pre K) by (rewrite HK; apply incl_appl, incl_refl).
  pose proof (in_map fi_path K x HxK) as HpK. pose proof (in_map fi_sig K x HxK) as HsK. cbn [fi_path fi_sig x] in HpK, HsK.
  (* all_refs changes at p only, and not even there when p has been kept before *)
  assert (Hrf : forall q, q <> p \/ In (Some q) (map fi_path pre) -> alook q (aset p s rf) = alook q rf).
  { intros q Hq. rewrite alook_aset. destruct (bytes_eqb_spec q p) as [-> |]; [|reflexivity].
    destruct Hq as [Hq | Hq]; [congruence|]. apply in_map_iff in Hq. destruct Hq as [n [Hnp Hn]].
    rewrite (I4a n p Hn Hnp). f_equal. symmetry. exact (Hw2 n x (HpreK n Hn) HxK Hnp). }
  (* no read before produce: what completed nodes load is not affected, so what they contribute stays recorded *)
  assert (Hrec : forall n k, In n pre -> contrib n (aset p s rf) k -> In k E).
  { intros n k Hn [Hk [H | [q [Hq Hs]]]]; apply (I3 n k Hn); (split; [exact Hk|]); [left; exact H | right].
    exists q. split; [exact Hq|].
    rewrite <- Hrf; [exact Hs|]. destruct (bytes_eqb_spec q p) as [-> |]; [right | left; assumption].
    apply in_split in Hn. destruct Hn as [l1 [l2 ->]]. rewrite <- app_assoc in HK. cbn [app] in HK.
    destruct (Hw3 l1 n _ HK p Hq) as [H | [H _]].
    - rewrite map_app, in_app_iff. left. exact H.
    - destruct (H HpK). }
  (* the sources of the new edges have completed, or are not kept at all *)
  assert (Hsrc : forall k, contrib x (aset p s rf) k -> In (fst k) (map fi_sig K) -> In (fst k) (map fi_sig pre)).
  { intros k [_ [H | [q [Hq Hs]]]] HkK; [apply Hheads; exact H|].
    destruct (Hw3 pre x post HK q Hq) as [Hin | [Hnk HnR]].
    - rewrite Hrf in Hs by (right; exact Hin). apply in_map_iff in Hin. destruct Hin as [n [Hnq Hn]].
      rewrite (I4a n q Hn Hnq) in Hs. injection Hs as <-. apply in_map. exact Hn.
    - exfalso. rewrite Hrf, (I4b q Hnk) in Hs; [|left; intros ->; exact (Hnk HpK)].
      apply alook_In in Hs. exact (HnR _ Hs HkK). }
  split; [|split; [|split; [|split]]].
  - apply (add_in_edges_acyclic E E' s I1). intros e He. apply HE in He. destruct He as [He | He]; [left; exact He|].
    destruct (in_dec (list_eq_dec ascii_dec) s (map fi_sig pre)) as [Hdone | Hnew]; [left | right].
    + (* the signature has completed before, with the same loads and children: nothing new *)
      apply in_map_iff in Hdone. destruct Hdone as [n [Hns Hn]].
      destruct (Hw1 n x (HpreK n Hn) HxK Hns) as [_ [El Ec]].
      apply (Hrec n e Hn). unfold contrib. rewrite Hns, El, Ec. exact He.
    + (* first completion: s is not yet the source of an edge, and is not the source of a new one *)
      split; [apply He|]. intros [E0 | Hp].
      * apply Hnew. rewrite E0. apply (Hsrc e He). rewrite <- E0. exact HsK.
      * apply path_src in Hp. destruct Hp as [c Hc]. exact (Hnew (I2 s c Hc HsK)).
  - intros a0 b H HaK. rewrite map_app, in_app_iff. left. apply HE in H.
    destruct H as [H | H]; [eapply I2; eassumption | apply (Hsrc _ H HaK)].
  - intros n k Hn Hc. apply HE. apply in_app_iff in Hn.
    destruct Hn as [Hn | [<- | []]]; [left; exact (Hrec n k Hn Hc) | right; exact Hc].
  - intros n p' Hn Hp'. apply in_app_iff in Hn. destruct Hn as [Hn | [<- | []]].
    + rewrite Hrf; [apply I4a; assumption|]. right. rewrite <- Hp'. apply in_map. exact Hn.
    + injection Hp' as <-. rewrite alook_aset, bytes_eqb_refl. reflexivity.
  - intros q Hq. rewrite Hrf; [exact (I4b q Hq) | left; intros ->; exact (Hq HpK)].
Qed.

Lemma node_done_keys : forall s p f a loads ch st2 st5,
  node_done s p loads (map snd (heads_of_children ch)) st2 st5 ->
  forall k, In k (keys st5) <-> In k (keys st2) \/ contrib (FI s (Some p) f a loads ch) (aset p s (g_refs st2)) k.
Proof.
  intros s p f a loads ch st2 st5 [_ [_ [[D1 D2] [Hd Hl]]]] k.
  unfold contrib. cbn [fi_sig fi_loads fi_children]. rewrite !in_keys. split.
  - intros [e He]. destruct (D1 k e He) as [H | [Hk H]]; [left; exists e; exact H | right].
    split; [exact Hk|]. destruct (e_type e); [left; exact H | destruct H | right; exists (e_from e); exact H].
  - intros [[e He] | [Hk H]].
    + destruct (D2 k e He) as [e' [He' _]]. exists e'. exact He'.
    + destruct k as [k1 k2]. cbn [fst snd] in Hk, H. subst k2. destruct H as [H | [q [Hq Hs]]].
      * destruct (Hd k1 H) as [e [He _]]. exists e. exact He.
      * apply in_keys. exact (Hl q k1 Hq Hs).
Qed.

Lemma traverse_inv : forall x st pre post,
  K = pre ++ ks x ++ post -> InvS pre st -> InvS (pre ++ ks x) (snd (traverse x st)).
Proof.
  apply (trav_ind
    (fun x st st' => forall pre post, K = pre ++ ks x ++ post -> InvS pre st -> InvS (pre ++ ks x) st')
    (fun l st st' => forall pre post, K = pre ++ flat_map ks l ++ post -> InvS pre st -> InvS (pre ++ flat_map ks l) st')).
  - intros st pre post _ H. cbn [flat_map]. rewrite app_nil_r. exact H.
  - intros c r st st1 st2 Hc Hr pre post HK H. cbn [flat_map] in *. rewrite <- app_assoc in HK.
    rewrite app_assoc. apply (Hr (pre ++ ks c) post); [rewrite <- app_assoc; exact HK|].
    apply (Hc pre (flat_map ks r ++ post)); assumption.
  - intros s pth f a loads ch st st1 st2 st3 HQL Himp Hnode pre post HK H. rewrite ks_eq in *. rewrite <- app_assoc in HK.
    set (pre2 := pre ++ flat_map ks ch).
    assert (Hheads : forall h, In h (map snd (heads_of_children ch)) -> In h (map fi_sig pre2)).
    { intros h Hh. unfold pre2. rewrite map_app, in_app_iff. right. revert h Hh. apply heads_ks_list, Forall_forall. intros c _. apply heads_ks. }
    assert (H2 : InvS pre2 st2).
    { apply Himp; [|exact (HQL pre _ HK H)]. intros ss0 st0 n1 n2 Hsib.
      apply implicit_pair_inv, Hheads, (sibling_pairs_src _ _ _ Hsib). }
    rewrite app_assoc. fold pre2. destruct pth as [p|]; [|subst st3; rewrite app_nil_r; exact H2].
    unfold InvS. rewrite (proj1 Hnode).
    apply Inv_complete with (post := post) (E := keys st2); [|exact Hheads | exact H2 | exact (node_done_keys _ _ f a _ _ _ _ Hnode)].
    unfold pre2. rewrite <- app_assoc. exact HK.
Qed.
End Acyclic.

Theorem structure_acyclic : forall x R, wf_graph_input x R -> acyclic (map fst (g_deps (final_state x R))).
Proof.
  intros x R [H1 [H2 H3]]. unfold final_state.
  destruct (traverse_inv (ks x) R H1 H2 H3 x (GState [] R [] []) [] []) as [Hac _].
  - rewrite app_nil_r. reflexivity.
  - split; [apply acyclic_nil | split; [intros a b [] | split; [intros n k [] | split; [intros n p [] | reflexivity]]]].
  - exact Hac.
Qed.

Lemma wf_distinct : forall K K0,
  incl K K0 -> ForallOrdPairs (fun n m => fi_sig n <> fi_sig m /\ fi_path n <> fi_path m) K0 -> wf_sig K /\ wf_path K.
Proof.
  intros K K0 Hi H.
  split; intros n m Hn Hm E; destruct (ForallOrdPairs_In H n m (Hi n Hn) (Hi m Hm)) as [-> | [[H1 H2] | [H1 H2]]];
    try congruence; auto.
Qed.

(* wf_loads, checked from left to right *)
Definition loads_ok (K : list fi) (R : list (bytes * bytes)) (pre : list fi) (n : fi) : Prop :=
  forall q, In q (fi_loads n) ->
    In (Some q) (map fi_path pre) \/ (~ In (Some q) (map fi_path K) /\ forall s, In (q, s) R -> ~ In s (map fi_sig K)).

Fixpoint loads_chk (K : list fi) (R : list (bytes * bytes)) (pre l : list fi) : Prop :=
  match l with
  | [] => True
  | n :: r => loads_ok K R pre n /\ loads_chk K R (pre ++ [n]) r
  end.

Lemma loads_chk_wf : forall K R, loads_chk K R [] K -> wf_loads K R.
Proof.
  intros K R H.
  assert (G : forall pre pre0 n post, loads_chk K R pre0 (pre ++ n :: post) -> loads_ok K R (pre0 ++ pre) n).
  { induction pre as [|m pre IH]; intros pre0 n post [Hm Hr].
    - rewrite app_nil_r. exact Hm.
    - change (m :: pre) with ([m] ++ pre). rewrite app_assoc. exact (IH _ n post Hr). }
  intros pre n post E. apply (G pre [] n post). rewrite <- E. exact H.
Qed.

(* The code before the fixes, for the sanity examples: f28 = false resets the recorded dependencies of a kept node when it
   is reached again; f29 = false adds call-order edges without the reachability guard.  traverse_old true true is meant
   to be traverse (checked on the examples only). *)
Definition implicit_pair_old (f29 : bool) (sub_set : list bytes) (st : gstate) (n1 n2 : gnode) : gstate :=
  let k1 := snd n1 in let k2 := snd n2 in
  if bytes_eqb k1 k2 then st else
  let nd := g_ndeps st in
  let nd := match alook k1 nd with Some _ => nd | None => aset k1 [] nd end in
  let nd := match alook k2 nd with Some _ => nd | None => aset k2 [] nd end in
  let st1 := GState (g_nodes st) (g_refs st) nd (g_deps st) in
  let d1 := ndeps_of st1 k1 in let d2 := ndeps_of st1 k2 in
  match dlook (k1, k2) (g_deps st1) with
  | Some _ => st1
  | None =>
    if negb (memb k2 d1) && negb (memb k1 d2) && negb (memb k1 sub_set) && negb (memb k2 sub_set)
       && (if f29 then negb (reaches (g_deps st1) k2 k1) else true) then
      GState (g_nodes st1) (g_refs st1) (aset k2 (set_union (set_add k1 d2) d1) nd)
             (dset (k1, k2) (GEdge (fst n1) (fst n2) EImplicit) (g_deps st1))
    else st1
  end.

Fixpoint traverse_old (f28 f29 : bool) (x : fi) (st : gstate) {struct x} : list gnode * gstate :=
  match x with
  | FI sig path _ _ loads children =>
    let '(subs, st1) :=
      (fix go (l : list fi) (st : gstate) : list (list gnode * nat) * gstate :=
         match l with
         | [] => ([], st)
         | c :: r => let '(ns, st') := traverse_old f28 f29 c st in
                     let '(rest, st'') := go r st' in ((ns, fi_nargs c) :: rest, st'')
         end) children st in
    let sub_nodes := dedupe_nodes (flat_map fst subs) in
    let sub_set := fold_left (fun acc n => set_union acc (ndeps_of st1 (snd n))) sub_nodes [] in
    let '(_, st2) :=
      match subs with
      | [] => ([], st1)
      | (l0, _) :: rest =>
        fold_left (fun acc ln =>
                     let '(start_nodes, st) := acc in
                     let '(l1, nargs) := ln in
                     if Nat.eqb nargs 0 then (start_nodes ++ l1, st)
                     else (l1, fold_left (fun st n1 => fold_left (fun st n2 => implicit_pair_old f29 sub_set st n1 n2) l1 st) start_nodes st))
                  rest (l0, st1)
      end in
    match path with
    | None => (sub_nodes, st2)
    | Some p =>
      let res := (p, sig) in
      let nodes := aset sig res (g_nodes st2) in
      let refs := aset p sig (g_refs st2) in
      let sub_set2 := set_union sub_set (map snd sub_nodes) in
      let st3 := GState nodes refs (aset sig (if f28 then set_union sub_set2 (ndeps_of st2 sig) else sub_set2) (g_ndeps st2)) (g_deps st2) in
      let st4 :=
        fold_left (fun st n =>
                     let k := (snd n, sig) in
                     let deps := match dlook k (g_deps st) with
                                 | Some (GEdge _ _ EDirect) => g_deps st
                                 | _ => dset k (GEdge (fst n) p EDirect) (g_deps st)
                                 end in
                     GState (g_nodes st) (g_refs st)
                            (aset sig (set_union (ndeps_of st sig) (ndeps_of st (snd n))) (g_ndeps st)) deps)
                  sub_nodes st3 in
      let st5 :=
        fold_left (fun st q =>
                     match alook q (g_refs st) with
                     | None => st
                     | Some sig2 =>
                       let nodes := match alook sig2 (g_nodes st) with Some _ => g_nodes st | None => aset sig2 (q, sig2) (g_nodes st) end in
                       let k := (sig2, sig) in
                       let deps := match dlook k (g_deps st) with Some _ => g_deps st | None => dset k (GEdge q p EIndirect) (g_deps st) end in
                       GState nodes (g_refs st) (g_ndeps st) deps
                     end)
                  loads st4 in
      ([res], st5)
    end
  end.
Definition keys_old (f28 f29 : bool) (x : fi) (R : list (bytes * bytes)) : list (bytes * bytes) :=
  map fst (g_deps (snd (traverse_old f28 f29 x (GState [] R [] [])))).

(* Non-vacuity: trees with a shared sub-tree *)
From Coq Require Import String.
Section Examples.
Local Open Scope string_scope.

(* a helper h (not kept, called with an argument) calls a (kept at /a) then b (kept at /b, with a run-time argument); the
   kept function main calls h twice with the same signature, and loads /r (fetched from the store) and /a *)
Definition ex_a : fi := FI (bs "sa") (Some (bs "/a")) (bs "a") 0 [] [].
Definition ex_b : fi := FI (bs "sb") (Some (bs "/b")) (bs "b") 1 [] [].
Definition ex_h : fi := FI (bs "sh") None (bs "h") 1 [] [ex_a; ex_b].
Definition ex_shared : fi := FI (bs "sp") (Some (bs "/p")) (bs "main") 0 [bs "/r"; bs "/a"] [ex_h; ex_h].
Definition ex_R : list (bytes * bytes) := [(bs "/r", bs "sr")].

Lemma ex_shared_ks : ks ex_shared = [ex_a; ex_b; ex_a; ex_b; ex_shared].
Proof. reflexivity. Qed.

Lemma ex_shared_wf : wf_graph_input ex_shared ex_R.
Proof.
  unfold wf_graph_input. rewrite ex_shared_ks.
  destruct (wf_distinct [ex_a; ex_b; ex_a; ex_b; ex_shared] [ex_a; ex_b; ex_shared]) as [H1 H2];
    [intros n; cbn [In]; tauto | repeat constructor; discriminate | split; [exact H1 | split; [exact H2|]]].
  apply loads_chk_wf. cbn [loads_chk app]. repeat split; try (intros q Hq; solve [destruct Hq]).
  intros q [Hq | [Hq | []]]; subst q.
  - right. split.
    + cbn [map In]. intuition discriminate.
    + intros s [Hs | []]. injection Hs as <-. cbn [map In]. intuition discriminate.
  - left. vm_compute. left. reflexivity.
Qed.

Example ex_shared_acyclic : acyclic (map fst (g_deps (final_state ex_shared ex_R))).
Proof. exact (structure_acyclic ex_shared ex_R ex_shared_wf). Qed.

Example ex_shared_keys :
  map fst (g_deps (final_state ex_shared ex_R)) =
  [(bs "sa", bs "sb"); (bs "sa", bs "sp"); (bs "sb", bs "sp"); (bs "sr", bs "sp")].
Proof. vm_compute. reflexivity. Qed.

Example ex_shared_old_is_traverse :
  traverse_old true true ex_shared (GState [] ex_R [] []) = traverse ex_shared (GState [] ex_R [] []).
Proof. vm_compute. reflexivity. Qed.

(* before the fixes F28 and F29 the second visit of h gave call-order edges in both directions *)
Example ex_shared_old_cycle : path (keys_old false false ex_shared ex_R) (bs "sa") (bs "sa").
Proof.
  apply path_step with (b := bs "sb"); [|apply path_one]; vm_compute.
  - left. reflexivity.
  - right. left. reflexivity.
Qed.

(* with the fix F28 alone (recorded dependencies kept) this tree has no cycle, but the next one has: a (kept at /p5) is called
   by the helper h; c (kept at /p3) calls h; d (kept at /p9) loads /p3 and is followed by another call of h: solid a -> c,
   dashed c -> d, and the call-order edge d -> a that only the reachability guard refuses *)
Definition ex2_a : fi := FI (bs "sa") (Some (bs "/p5")) (bs "a") 0 [] [].
Definition ex2_h : fi := FI (bs "sh") None (bs "h") 1 [] [ex2_a].
Definition ex2_c : fi := FI (bs "sc") (Some (bs "/p3")) (bs "c") 0 [] [ex2_h].
Definition ex2_d : fi := FI (bs "sd") (Some (bs "/p9")) (bs "d") 0 [bs "/p3"] [].
Definition ex2_q : fi := FI (bs "sq") None (bs "q") 0 [] [ex2_d; ex2_h].
Definition ex_through_load : fi := FI (bs "sx") None (bs "main") 0 [] [ex2_c; ex2_q].

Lemma ex_through_load_ks : ks ex_through_load = [ex2_a; ex2_c; ex2_d; ex2_a].
Proof. reflexivity. Qed.

Lemma ex_through_load_wf : wf_graph_input ex_through_load [].
Proof.
  unfold wf_graph_input. rewrite ex_through_load_ks.
  destruct (wf_distinct [ex2_a; ex2_c; ex2_d; ex2_a] [ex2_a; ex2_c; ex2_d]) as [H1 H2];
    [intros n; cbn [In]; tauto | repeat constructor; discriminate | split; [exact H1 | split; [exact H2|]]].
  apply loads_chk_wf. cbn [loads_chk app]. repeat split; try (intros q Hq; solve [destruct Hq]).
  intros q [Hq | []]; subst q. left. vm_compute. right. left. reflexivity.
Qed.

Example ex_through_load_acyclic : acyclic (map fst (g_deps (final_state ex_through_load []))).
Proof. exact (structure_acyclic ex_through_load [] ex_through_load_wf). Qed.

Example ex_through_load_old_is_traverse :
  traverse_old true true ex_through_load (GState [] [] [] []) = traverse ex_through_load (GState [] [] [] []).
Proof. vm_compute. reflexivity. Qed.

Example ex_through_load_old_cycle : path (keys_old true false ex_through_load []) (bs "sa") (bs "sa").
Proof.
  apply path_step with (b := bs "sc"); [|apply path_step with (b := bs "sd"); [|apply path_one]]; vm_compute.
  - left. reflexivity.
  - right. left. reflexivity.
  - right. right. left. reflexivity.
Qed.
End Examples.
